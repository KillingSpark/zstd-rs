(** Facts about [firstn], [skipn], [nth], [last], [NoDup], [rev'], [combine] that the standard library of this version lacks. *)
From Coq Require Import ZArith Lia List.
Import ListNotations.

Lemma firstn_split {A} a : forall b (l : list A), firstn (a + b) l = firstn a l ++ firstn b (skipn a l).
Proof.
  induction a as [|a IH]; intros b l; [reflexivity|]. destruct l as [|x t]; [cbn [skipn]; rewrite !firstn_nil; reflexivity|].
  cbn [Nat.add firstn skipn app]. f_equal. apply IH.
Qed.

Lemma skipn_add {A} a : forall b (l : list A), skipn b (skipn a l) = skipn (a + b) l.
Proof.
  induction a as [|a IH]; intros b l; [reflexivity|]. destruct l as [|x t]; [cbn; rewrite skipn_nil; reflexivity|].
  cbn [Nat.add skipn]. apply IH.
Qed.

Lemma nth_skipn_add {A} (d : A) : forall n k (l : list A), nth k (skipn n l) d = nth (n + k) l d.
Proof. induction n as [|n IH]; intros k l; [reflexivity|]. destruct l as [|x t]; [destruct k; reflexivity|]. cbn [skipn Nat.add nth]. apply IH. Qed.

Lemma nth_firstn_lt {A} (d : A) : forall i j (l : list A), j < i -> nth j (firstn i l) d = nth j l d.
Proof. induction i as [|i IH]; intros j l H; [lia|]. destruct l as [|x t]; [destruct j; reflexivity|]. destruct j; cbn [firstn nth]; [reflexivity|]. apply IH. lia. Qed.

Lemma firstn_S_nth {A} (d : A) k : forall l, k < length l -> firstn (S k) l = firstn k l ++ [nth k l d].
Proof.
  induction k as [|k IH]; intros [|x t] H; cbn [length] in H; try lia; [reflexivity|].
  change (firstn (S (S k)) (x :: t)) with (x :: firstn (S k) t). rewrite (IH t) by lia. reflexivity.
Qed.

Lemma split_app_le {A} n (a t : list A) : n <= length a ->
  firstn n (a ++ t) = firstn n a /\ skipn n (a ++ t) = skipn n a ++ t.
Proof.
  intros H. rewrite firstn_app, skipn_app. replace (n - length a) with 0 by lia.
  cbn [firstn skipn]. rewrite app_nil_r. split; reflexivity.
Qed.

Lemma split_at_length {A} (a b : list A) : skipn (length a) (a ++ b) = b /\ firstn (length a) (a ++ b) = a.
Proof. destruct (split_app_le (length a) a b (le_n _)) as [-> ->]. rewrite firstn_all, skipn_all. split; reflexivity. Qed.

Lemma skipn_app_2 {A} n (a b : list A) : skipn (length a + n) (a ++ b) = skipn n b.
Proof. induction a as [|x a IH]; [reflexivity|exact IH]. Qed.

Lemma firstn_In' {A} n (l : list A) x : In x (firstn n l) -> In x l.
Proof. intros H. rewrite <- (firstn_skipn n l). apply in_or_app. left. exact H. Qed.
Lemma skipn_In' {A} n (l : list A) x : In x (skipn n l) -> In x l.
Proof. intros H. rewrite <- (firstn_skipn n l). apply in_or_app. right. exact H. Qed.

Lemma last_is_nth {A} (l : list A) d : l <> [] -> last l d = nth (length l - 1) l d.
Proof.
  induction l as [|x t IH]; [congruence|]. intros _. destruct t as [|y t']; [reflexivity|].
  change (last (x :: y :: t') d) with (last (y :: t') d). rewrite IH by discriminate. cbn [length]. replace (S (S (length t')) - 1) with (S (length t')) by lia.
  cbn [nth]. replace (S (length t') - 1) with (length t') by lia. reflexivity.
Qed.

Lemma app_nonempty_r {A} (l r : list A) : r <> [] -> l ++ r <> [].
Proof. intros H E. apply app_eq_nil in E. tauto. Qed.

Lemma list_pair_ind {A} (P : list A -> Prop) :
  P [] -> (forall x, P [x]) -> (forall x y l, P l -> P (x :: y :: l)) -> forall l, P l.
Proof. intros H0 H1 H2. fix IH 1. intros [|x [|y l]]; [exact H0|apply H1|apply H2, IH]. Qed.

Lemma filter_len_le {A} (f : A -> bool) l : length (filter f l) <= length l.
Proof. induction l as [|h t IH]; cbn [filter length]; [lia|]. destruct (f h); cbn [length]; lia. Qed.

Lemma combine_app2 {A B} (a a' : list A) (b b' : list B) : length a = length b -> combine (a ++ a') (b ++ b') = combine a b ++ combine a' b'.
Proof. revert b. induction a as [|x a IH]; intros b Hl; destruct b as [|y b]; cbn in Hl; try lia; cbn [app combine]; [reflexivity|]. rewrite IH by lia. reflexivity. Qed.

Lemma map_fst_combine {A B} (a : list A) (b : list B) : length a = length b -> map fst (combine a b) = a.
Proof.
  revert b. induction a as [|x a IH]; intros b Hl; destruct b as [|y b]; cbn in Hl; try lia; cbn [combine map fst]; [reflexivity|].
  rewrite IH by lia. reflexivity.
Qed.

Lemma rev'_rev {A} (l : list A) : rev' l = rev l.
Proof. unfold rev'. rewrite rev_append_rev, app_nil_r. reflexivity. Qed.

Lemma rev_append_app {A} (a b x : list A) : rev_append (a ++ b) x = rev_append b (rev_append a x).
Proof. rewrite !rev_append_rev, rev_app_distr, app_assoc. reflexivity. Qed.

Lemma rev'_rev_append {A} (c w : list A) : rev' (rev_append c w) = rev' w ++ c.
Proof. rewrite !rev'_rev, rev_append_rev, rev_app_distr, rev_involutive. reflexivity. Qed.

Lemma fold_max_ge l x : In x l -> (x <= fold_right Z.max 0%Z l)%Z.
Proof. induction l as [|y t IH]; [contradiction|]. cbn [fold_right]. intros [->|H]; [lia|]. specialize (IH H). lia. Qed.

Lemma fold_max_in l : (0 < fold_right Z.max 0 l)%Z -> In (fold_right Z.max 0%Z l) l.
Proof.
  induction l as [|y t IH]; cbn [fold_right]; [lia|]. intros H.
  destruct (Z.max_spec y (fold_right Z.max 0%Z t)) as [(_ & E)|(_ & E)]; rewrite E in *; [right; exact (IH H)|left; reflexivity].
Qed.

Lemma nth_splice {A} (l : list A) (i : nat) (v d : A) (j : nat) : (i < length l)%nat ->
  nth j (firstn i l ++ [v] ++ skipn (S i) l) d = if Nat.eqb j i then v else nth j l d.
Proof.
  intros Hi. destruct (Nat.eqb_spec j i) as [->|Hne].
  - rewrite app_nth2 by (rewrite firstn_length; lia). rewrite firstn_length, Nat.min_l by lia. rewrite Nat.sub_diag. reflexivity.
  - destruct (Nat.lt_ge_cases j i) as [Hlt|Hge].
    + rewrite app_nth1 by (rewrite firstn_length; lia). apply nth_firstn_lt. exact Hlt.
    + rewrite app_nth2 by (rewrite firstn_length; lia). rewrite firstn_length, Nat.min_l by lia.
      destruct (j - i)%nat as [|k] eqn:Ek; [lia|]. cbn [app nth]. rewrite nth_skipn_add. f_equal. lia.
Qed.

Lemma NoDup_app_intro {A} (a b : list A) : NoDup a -> NoDup b -> (forall x, In x a -> In x b -> False) -> NoDup (a ++ b).
Proof.
  induction a as [|x t IH]; intros Ha Hb Hd; [exact Hb|]. inversion Ha as [|? ? Hn Ht]; subst. cbn [app]. constructor.
  - intros H. apply in_app_or in H as [H|H]; [contradiction|]. apply (Hd x); [left; reflexivity|exact H].
  - apply IH; [exact Ht|exact Hb|]. intros y Hy1 Hy2. apply (Hd y); [right; exact Hy1|exact Hy2].
Qed.

Lemma nodup_key {A B} (f : A -> B) (l : list A) a b : NoDup (map f l) -> In a l -> In b l -> f a = f b -> a = b.
Proof.
  induction l as [|x t IH]; intros Hnd Ha Hb Hf; [contradiction|]. cbn [map] in Hnd. inversion Hnd as [|? ? Hnotin Hnd']; subst.
  destruct Ha as [->|Ha]; destruct Hb as [->|Hb]; [reflexivity| | |apply IH; assumption].
  - exfalso. apply Hnotin. rewrite Hf. apply in_map. exact Hb.
  - exfalso. apply Hnotin. rewrite <- Hf. apply in_map. exact Ha.
Qed.

Lemma last_app_ne {A} (l1 l2 : list A) d : l2 <> [] -> last (l1 ++ l2) d = last l2 d.
Proof.
  intros H. induction l1 as [|x t IH]; [reflexivity|]. cbn [app]. rewrite <- IH.
  destruct (t ++ l2) eqn:E; [apply app_eq_nil in E as [_ E]; contradiction|reflexivity].
Qed.
