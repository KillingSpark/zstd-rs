(** Reasoning about computations in the [res] monad: inverting a successful [let*], and postconditions. *)
Require Import Zrs.lib.RsPrelude.

Lemma rbind_ok {A B} (x : res A) (f : A -> res B) y : rbind x f = ROk y -> exists a, x = ROk a /\ f a = ROk y.
Proof. destruct x as [a|e|e]; [exists a; split; [reflexivity|assumption]|discriminate|discriminate]. Qed.

(** [rbind_ok] on a hypothesis, in place: [H : (let* x := r in k) = ROk y] becomes [E : r = ROk a] and [H : k a = ROk y] *)
Ltac bind_inv H :=
  match type of H with
  | rbind ?r _ = ROk _ => let E := fresh "E" in destruct r eqn:E; cbn [rbind] in H; [|discriminate H|discriminate H]
  end.

(** [post r Q]: [r] is not a panic, and if it is a value the value satisfies [Q].  Every layer of C03 proves a statement
    of this form; a function written with [let*] is walked through with [post_bind], one specification per step. *)
Definition post {A} (r : res A) (Q : A -> Prop) : Prop :=
  match r with ROk a => Q a | RErr _ => True | RPanic _ => False end.
Definition no_panic {A} (r : res A) : Prop := post r (fun _ => True).

Lemma post_bind {A B} (r : res A) (f : A -> res B) (P : A -> Prop) (Q : B -> Prop) :
  post r P -> (forall a, P a -> post (f a) Q) -> post (rbind r f) Q.
Proof. destruct r as [a|e|e]; cbn [post rbind]; [intros H K; exact (K a H)|trivial|contradiction]. Qed.
Lemma post_mono {A} (r : res A) (P Q : A -> Prop) : post r P -> (forall a, P a -> Q a) -> post r Q.
Proof. destruct r as [a|e|e]; cbn [post]; [intros H K; exact (K a H)|trivial|trivial]. Qed.
(** adding what a separate lemma says about the values *)
Lemma post_also {A} (r : res A) (P Q : A -> Prop) : post r P -> (forall a, r = ROk a -> P a -> Q a) -> post r Q.
Proof. destruct r as [a|e|e]; cbn [post]; [intros H K; exact (K a eq_refl H)|trivial|trivial]. Qed.

Lemma post_if {A} (c : bool) (a b : res A) (Q : A -> Prop) : post a Q -> post b Q -> post (if c then a else b) Q.
Proof. destruct c; trivial. Qed.
