(** Property C13 -- Huffman tables are valid and literal coding round-trips for every distribution.
    Models: coq/model/HufEnc.v (weight shape and canonical codes of the compressor) and coq/model/HufDec.v (the decoder's
    weight reader and table builder).  The compressor's code shape depends only on the number of distinct symbols and
    their rank by count, so the shape statements are over the finite domain 2..256: the shapes are evaluated once
    ([shape_sweep]); that compressor and decoder agree on them is an instance of the agreement for every complete weight list.
    NOT yet theorems (covered by the correspondence run and its oracles): the bit-level round trip of literal streams,
    the < 128 byte bound on FSE-compressed weight descriptions, the decoder's canonical table for EVERY valid weight
    list (only rejection conditions and the compressor's shapes are proved). *)
Require Import Zrs.lib.RsPrelude Zrs.model.BitIO Zrs.model.FseDec Zrs.model.HufDec Zrs.model.HufEnc.
Require Import Zrs.proofs.ModelFacts Zrs.proofs.C13_Huffman.
Require Import Zrs.model.BitIO Zrs.model.BitStream Zrs.model.HufDec Zrs.proofs.C12_Stream Zrs.proofs.C13_Stream.
Require Import Zrs.gen.Generated Zrs.model.Headers Zrs.model.BlockDec Zrs.model.LitEnc Zrs.proofs.C13_LitSection.
Require Import Zrs.proofs.C03_HufTable Zrs.proofs.C13_Canonical Zrs.proofs.C13_CanonCode Zrs.proofs.C13_LitAll Zrs.proofs.C13_Direct.
Require Import Zrs.model.SeqEnc Zrs.model.FseEnc Zrs.model.WeightEnc Zrs.proofs.C12_SeqStream Zrs.proofs.C12_Desc Zrs.proofs.C13_WeightStream Zrs.proofs.C13_WeightDesc Zrs.proofs.C12_AvoidBits.
Require Import Zrs.model.FseNorm.
Require Import Zrs.proofs.C13_EncCanon Zrs.proofs.C13_Agree Zrs.proofs.C13_Accepted Zrs.proofs.C13_EncWeights.
Open Scope Z_scope.

Theorem C13_shape_valid : forall n, 2 <= n <= 256 ->
  exists ws, shape n = ROk ws /\ Z.of_nat (length ws) = n /\ is_pow2z (kraft ws) = true /\
    Forall (fun w => 1 <= w <= Z.log2 (kraft ws)) ws /\ Z.log2 (kraft ws) <= Z.log2 n + 2 /\ Z.log2 (kraft ws) <= 11.
Proof. exact shape_valid. Qed.

Theorem C13_enc_dec_agree : forall n, 2 <= n <= 256 -> shape_orders_check n = true.
Proof. exact enc_dec_agree. Qed.

Theorem C13_dec_rejects_big_weight : forall ws, Exists (fun w => 11 < w) ws ->
  build_table_from_weights ws = RErr "WeightBiggerThanMaxNumBits"%string.
Proof. exact dec_rejects_big_weight. Qed.

Theorem C13_dec_accepts_only_complete_codes : forall ws dec M bits ranks idxs,
  build_table_from_weights ws = ROk (dec, M, bits, ranks, idxs) ->
  exists wsum, weight_sum ws 0 = ROk wsum /\ 0 < wsum /\ M = highest_bit_set wsum /\ M <= 11 /\
    is_pow2 (2 ^ M - wsum) = true.
Proof. exact dec_accepts_only_complete_codes. Qed.

(** the literal bit stream: what the compressor writes for a symbol list (the codes last symbol first, a 1 bit,
    padding -- an executable model compared byte for byte with the real compressor's streams on every run) is read by
    [huf_decode_stream] back into exactly those symbols, with the end-of-stream check satisfied; for every symbol
    list and every table of 2^max_bits entries that resolves each used code from any window starting with it (a
    decidable property; for the compressor's own tables see C13_encoder_decoder_agree) *)
Theorem C13_literal_stream_roundtrip : forall t Mn, ht_max_bits t = Z.of_nat Mn -> (1 <= Mn)%nat -> ht_len t = 2 ^ Z.of_nat Mn ->
  forall code data out, data <> [] ->
  Forall (code_ok Mn code) data -> Forall (resolves t Mn code) data ->
  huf_decode_stream t (huf_stream_bytes code data) out true = ROk (rev data ++ out).
Proof. exact huffman_stream_roundtrip. Qed.

(** the whole Huffman-coded literals section of the compressor: four quarters [a b c d] of the literals, each a backward
    stream, behind a 6-byte jump table, behind the table description [desc] (type 2) or nothing (type 3, treeless: the
    decoder's table is the one the code was made for) -- [decode_literals] returns exactly the literals, the table, and
    the number of bytes of the section, for every table/code pair in which the table resolves the code words *)
Theorem C13_huffman_literals_section_decodes : forall t Mn, ht_max_bits t = Z.of_nat Mn -> (1 <= Mn)%nat -> ht_len t = 2 ^ Z.of_nat Mn ->
  forall code a b c d, a <> [] /\ b <> [] /\ c <> [] /\ d <> [] ->
  Forall (code_ok Mn code) (a ++ b ++ c ++ d) -> Forall (resolves t Mn code) (a ++ b ++ c ++ d) ->
  zlen (hstream code a) < 65536 /\ zlen (hstream code b) < 65536 /\ zlen (hstream code c) < 65536 ->
  forall ty desc ht,
  (ty = 2 /\ huf_build_decoder ht (desc ++ four_bytes code a b c d) = ROk (t, zlen desc)) \/ (ty = 3 /\ desc = [] /\ ht = t) ->
  decode_literals {| ls_type := ty; ls_regen := zlen (a ++ b ++ c ++ d); ls_comp := Some (zlen (desc ++ four_bytes code a b c d)); ls_streams := Some 4 |}
                  ht (desc ++ four_bytes code a b c d) = ROk (t, a ++ b ++ c ++ d, zlen (desc ++ four_bytes code a b c d)).
Proof. exact huffman_payload_decodes. Qed.

(** its header: both size formats the compressor uses (4 bytes below 16384 literals, 5 bytes from there on) are parsed
    back to the type, the regenerated size, the compressed size and four streams *)
Theorem C13_huffman_literals_header_small : forall ty regen comp rest, (ty = 2 \/ ty = 3) -> 0 <= regen < 16384 -> 0 <= comp < 16384 ->
  lit_header_parse (huf_lit_header ty regen comp ++ rest) = ROk (4, ty, regen, Some comp, Some 4).
Proof. exact huf_header_parse_small. Qed.
Theorem C13_huffman_literals_header_large : forall ty regen comp rest, (ty = 2 \/ ty = 3) -> 16384 <= regen < 262144 -> 0 <= comp < 262144 ->
  lit_header_parse (huf_lit_header ty regen comp ++ rest) = ROk (5, ty, regen, Some comp, Some 4).
Proof. exact huf_header_parse_large. Qed.

(** the side conditions are decidable: these boolean checks, evaluated on the table and code of every Huffman-coded block
    the real compressor emits in a run, imply them *)
Theorem C13_code_conditions_decidable : forall t mn code s,
  code_ok_b mn code s = true -> resolves_b t mn code s = true -> code_ok mn code s /\ resolves t mn code s.
Proof. intros t mn code s H1 H2. pose proof (code_ok_b_sound mn code s H1) as H. split; [exact H|]. apply resolves_b_sound; assumption. Qed.

(** *** the decoder's table is the decoding table of a complete prefix code -- for EVERY weight list it accepts

    Each symbol with a non-zero weight owns one aligned block of 2^(max_bits - length) consecutive entries, all carrying
    that symbol and that code length; blocks of different symbols are disjoint and together cover the table (blocks in
    order of decreasing length, then increasing symbol: the canonical assignment of the format).  At most 255 explicit
    weights, as the format allows (the symbol of an entry is a byte). *)
Theorem C13_decoder_table_is_a_complete_prefix_code : forall ws dec M bits ranks idxs,
  Forall (fun w => 0 <= w) ws -> (length ws <= 255)%nat ->
  build_table_from_weights ws = ROk (dec, M, bits, ranks, idxs) ->
  exists placed : list blk,
    NoDup (map blk_sym placed) /\
    (forall s base n, In (s, base, n) placed ->
       (n < Z.to_nat M)%nat /\ 0 <= s < Z.of_nat (length bits) /\ 0 <= base /\ base + 2 ^ Z.of_nat n <= 2 ^ M /\ base mod 2 ^ Z.of_nat n = 0 /\
       forall i, base <= i < base + 2 ^ Z.of_nat n -> nth_h dec i = {| h_sym := s; h_bits := M - Z.of_nat n |}) /\
    (forall i, 0 <= i < 2 ^ M -> exists s base n, In (s, base, n) placed /\ base <= i < base + 2 ^ Z.of_nat n) /\
    (forall j, (j < length bits)%nat -> 0 < nth j bits 0 -> exists base, In (Z.of_nat j, base, Z.to_nat (M - nth j bits 0)) placed /\
       (* the canonical place: after the blocks of all longer codes and of the smaller symbols with the same length *)
       base = region M ranks (Z.to_nat (M - nth j bits 0)) + cnt (nth j bits 0) (firstn j bits) * 2 ^ (M - nth j bits 0)).
Proof. exact built_table_blocks. Qed.

(** ... hence the code word read off the table for a symbol (first index, shortened to the code length) is well formed,
    has the length the weights prescribe, and is resolved by exactly the indices that start with it: the side
    conditions of the literals round trip, for every table and every symbol with a code *)
Theorem C13_code_words_of_every_table_resolve : forall ws dec M bits ranks idxs t,
  Forall (fun w => 0 <= w) ws -> (length ws <= 255)%nat ->
  build_table_from_weights ws = ROk (dec, M, bits, ranks, idxs) -> ht_decode t = dec -> ht_max_bits t = M ->
  (forall i, 0 <= i < 2 ^ M -> let s := h_sym (nth_h dec i) in
     code_ok_b (Z.to_nat M) (code_of_dec t) s = true /\ resolves_b t (Z.to_nat M) (code_of_dec t) s = true) /\
  (forall j, (j < length bits)%nat -> 0 < nth j bits 0 ->
     code_ok_b (Z.to_nat M) (code_of_dec t) (Z.of_nat j) = true /\ resolves_b t (Z.to_nat M) (code_of_dec t) (Z.of_nat j) = true /\
     snd (code_of_dec t (Z.of_nat j)) = Z.to_nat (nth j bits 0)).
Proof. exact built_table_codes. Qed.

(** non-vacuity: weights [2;1;1] (the implied fourth weight 3 completes the sum to 8): code lengths 2,3,3,1 and the
    blocks of symbols 1, 2 (one entry each), 0 (two entries), 3 (four entries) *)
Example C13_canonical_example :
  match build_table_from_weights [2; 1; 1] with
  | ROk (dec, M, bits, _, _) => M = 3 /\ bits = [2; 3; 3; 1] /\ map h_sym dec = [1; 2; 0; 0; 3; 3; 3; 3]
  | _ => False
  end.
Proof. vm_compute. auto. Qed.

(** *** every layout of the literals section

    raw and RLE literals in each of their size formats (1, 2, 3 header bytes), Huffman-coded literals in ONE stream (with a
    table description or treeless), and the remaining four-stream header format (10-bit sizes); with the four-stream
    theorems above this is every literals type, stream count and size format of the format *)
Theorem C13_raw_and_rle_literals_headers : forall ty n rest, (ty = 0 \/ ty = 1) -> 0 <= n < 2 ^ 20 ->
  lit_header_parse (plain_header ty n ++ rest) = ROk (zlen (plain_header ty n), ty, n, None, None).
Proof. exact plain_header_parse. Qed.

Theorem C13_raw_literals_decode : forall ht lits,
  decode_literals {| ls_type := 0; ls_regen := zlen lits; ls_comp := None; ls_streams := None |} ht lits = ROk (ht, lits, zlen lits).
Proof. exact raw_literals_decode. Qed.

Theorem C13_rle_literals_decode : forall ht b n, 0 <= n ->
  decode_literals {| ls_type := 1; ls_regen := n; ls_comp := None; ls_streams := None |} ht [b] = ROk (ht, repeat_z b (Z.to_nat n), 1).
Proof. exact rle_literals_decode. Qed.

Theorem C13_one_stream_headers : forall ty regen comp rest, (ty = 2 \/ ty = 3) -> 0 <= regen < 1024 -> 0 <= comp < 1024 ->
  lit_header_parse (huf1_header ty regen comp ++ rest) = ROk (3, ty, regen, Some comp, Some 1) /\
  lit_header_parse (huf4_header10 ty regen comp ++ rest) = ROk (3, ty, regen, Some comp, Some 4).
Proof. intros. split; [apply huf1_header_parse|apply huf4_header10_parse]; assumption. Qed.

Theorem C13_one_stream_huffman_literals_decode : forall t Mn, ht_max_bits t = Z.of_nat Mn -> (1 <= Mn)%nat -> ht_len t = 2 ^ Z.of_nat Mn ->
  forall code lits, lits <> [] -> Forall (code_ok Mn code) lits -> Forall (resolves t Mn code) lits ->
  forall ty desc ht,
  (ty = 2 /\ huf_build_decoder ht (desc ++ hstream code lits) = ROk (t, zlen desc)) \/ (ty = 3 /\ desc = [] /\ ht = t) ->
  decode_literals {| ls_type := ty; ls_regen := zlen lits; ls_comp := Some (zlen (desc ++ hstream code lits)); ls_streams := Some 1 |}
                  ht (desc ++ hstream code lits) = ROk (t, lits, zlen (desc ++ hstream code lits)).
Proof. exact huffman_one_stream_decodes. Qed.

(** the direct weight description (header byte 127 + count, then 4-bit weights, two per byte, first in the high half;
    what the compressor writes for at most 16 weights, legal up to 128) is parsed into exactly the weights written, so
    the decoder's table is the table of those weights (and by the structure theorem above the canonical code for them) *)
Theorem C13_direct_weight_description_roundtrip : forall t ws rest, (1 <= length ws <= 128)%nat -> Forall (fun w => 0 <= w < 16) ws ->
  read_weights t (direct_desc ws ++ rest) = ROk (ws, ht_fse t, Z.of_nat (length (direct_desc ws))).
Proof. exact direct_description_roundtrip. Qed.

Theorem C13_table_of_a_direct_description : forall t ws rest, (1 <= length ws <= 128)%nat -> Forall (fun w => 0 <= w < 16) ws ->
  huf_build_decoder t (direct_desc ws ++ rest) =
    let* (dec, max_bits, bits, ranks, idxs) := build_table_from_weights ws in
    ROk ({| ht_decode := dec; ht_len := 2 ^ max_bits; ht_weights := ws; ht_max_bits := max_bits; ht_bits := bits; ht_bit_ranks := ranks;
            ht_rank_indexes := idxs; ht_fse := ht_fse t |}, Z.of_nat (length (direct_desc ws))).
Proof. exact direct_description_table. Qed.

Example C13_direct_description_example : direct_desc [2; 1; 1] = [130; 33; 16] /\
  match huf_build_decoder huf_new ([130; 33; 16] ++ [7]) with ROk (t, used) => used = 3 /\ ht_weights t = [2; 1; 1] | _ => False end.
Proof. split; [reflexivity|vm_compute; auto]. Qed.

(** *** the FSE-compressed weight description

    The compressor writes more than 16 weights with two interleaved FSE states sharing one table
    ([weight_fields]: compared byte for byte with the real encoder on every run).  The decoder's two-state loop reads
    them back in order and stops exactly when the stream is exhausted -- provided every state carries at least one bit
    (the "avoid zero bits" option of the table builder) -- for any table that agrees with the encoder's, any 2..257
    weights over the symbols it covers *)
Theorem C13_two_state_weight_stream_roundtrip : forall D E syms data,
  agree D E syms ->
  (forall sym, In sym syms -> (1 <= es_bits (et_start E sym))%nat /\ forall idx, 0 <= idx < t_len D -> (1 <= es_bits (et_next E sym idx))%nat) ->
  (forall sym, In sym syms -> es_base (et_start E sym) < t_len D) ->
  (2 <= length data <= 257)%nat -> Forall (fun x => In x syms) data ->
  let cw := stream_bytes (weight_fields E data) in
  exists br0 s1 br1 s2 br2,
    rbr_skip_padding (rbr_new cw) = Some br0 /\ fse_init_state D br0 = ROk (s1, br1) /\ fse_init_state D br1 = ROk (s2, br2) /\
    fse_weights_loop (S (8 * length cw + 256)) D s1 s2 br2 [] 0 = ROk (rev data).
Proof. exact weight_stream_roundtrip. Qed.

(** the whole description: header byte (the length), FSE table description, stream -> exactly the weights written *)
Theorem C13_fse_compressed_weight_description_roundtrip : forall t al probs d D syms data rest,
  5 <= al <= 6 -> dist_ok al probs -> Z.of_nat (length probs) <= t_max_symbol (ht_fse t) + 1 ->
  desc_bytes al probs = Some d -> fse_build_from_probabilities (ht_fse t) al probs = ROk D ->
  table_wf D -> Forall (covers D) syms ->
  (forall sym, In sym syms -> (1 <= es_bits (et_start (enc_of_dec D) sym))%nat /\
                              forall idx, 0 <= idx < t_len D -> (1 <= es_bits (et_next (enc_of_dec D) sym idx))%nat) ->
  (forall sym, In sym syms -> es_base (et_start (enc_of_dec D) sym) < t_len D) ->
  (2 <= length data <= 257)%nat -> Forall (fun x => In x syms) data ->
  let stream := stream_bytes (weight_fields (enc_of_dec D) data) in
  let header := zlen d + zlen stream in
  header < 128 ->
  read_weights t (header :: d ++ stream ++ rest) = ROk (data, D, 1 + header).
Proof. exact fse_weight_description_roundtrip. Qed.

(** the same with a plain property of the decoding table in place of the hypotheses on the encoder's states: every entry
    carries at least one bit and has its baseline inside the table *)
Theorem C13_fse_compressed_weight_description_roundtrip_table : forall t al probs d D syms data rest,
  5 <= al <= 6 -> dist_ok al probs -> Z.of_nat (length probs) <= t_max_symbol (ht_fse t) + 1 ->
  desc_bytes al probs = Some d -> fse_build_from_probabilities (ht_fse t) al probs = ROk D ->
  table_wf D -> entries_carry_a_bit D -> Forall (covers D) syms ->
  (2 <= length data <= 257)%nat -> Forall (fun x => In x syms) data ->
  let stream := stream_bytes (weight_fields (enc_of_dec D) data) in
  let header := zlen d + zlen stream in
  header < 128 ->
  read_weights t (header :: d ++ stream ++ rest) = ROk (data, D, 1 + header).
Proof. exact fse_weight_description_roundtrip'. Qed.

(** ... and unconditionally on the table: for EVERY normalised distribution (accuracy log 5 or 6, what the weight
    description may use) in which no probability exceeds half the table size -- what the "avoid zero bits" option of the
    table builder establishes -- the description round-trips: the decoder builds the table and reads back exactly the
    weights, whatever 2..257 weights over symbols of non-zero probability were written *)
Theorem C13_fse_weight_description_for_every_half_bounded_distribution : forall t al probs d data rest,
  t_max_symbol (ht_fse t) = 255 -> 5 <= al <= 6 ->
  Forall (fun p => -1 <= p <= 2 ^ (al - 1)) probs -> weight probs = 2 ^ al -> last probs 1 <> 0 -> (length probs <= 256)%nat ->
  desc_bytes al probs = Some d ->
  (2 <= length data <= 257)%nat ->
  Forall (fun x => exists i, x = Z.of_nat i /\ (i < length probs)%nat /\ nth i probs 0 <> 0) data ->
  exists D, fse_build_from_probabilities (ht_fse t) al probs = ROk D /\
    let stream := stream_bytes (weight_fields (enc_of_dec D) data) in
    let header := zlen d + zlen stream in
    (header < 128 -> read_weights t (header :: d ++ stream ++ rest) = ROk (data, D, 1 + header)).
Proof. exact fse_weight_description_for_every_half_bounded_distribution. Qed.

(** the description exactly as the compressor builds it: histogram of the weights, normaliser with the avoid-zero-bits
    option and limit 6, table description, two-state stream -- read back by the decoder as exactly the weights, for
    every list of 2..257 weights (not all zero) for which the normaliser returns a distribution *)
Theorem C13_weight_description_as_the_compressor_builds_it : forall t data al probs d rest,
  t_max_symbol (ht_fse t) = 255 ->
  (2 <= length data <= 257)%nat -> Forall (fun w => 0 <= w <= 255) data -> 1 <= zmax_list data ->
  norm_counts (weight_hist data) 6 true = ROk (al, probs) -> desc_bytes al probs = Some d ->
  exists D, fse_build_from_probabilities (ht_fse t) al probs = ROk D /\
    let stream := stream_bytes (weight_fields (enc_of_dec D) data) in
    let header := zlen d + zlen stream in
    (header < 128 -> read_weights t (header :: d ++ stream ++ rest) = ROk (data, D, 1 + header)).
Proof. exact model_weight_description_roundtrip. Qed.

(** the weights the table writer derives back from the code lengths are the weights the code was built from (complete
    list whose smallest weight is 1); symbols of weight 0 get no code; the compressor's shape always contains weight 1 *)
Theorem C13_written_weights_are_the_weights : forall W codes, let M := Z.log2 (kraft W) in
  Forall (fun w => 0 <= w <= M) W -> In 1 W -> enc_build_from_weights W = ROk codes -> enc_weights codes = W.
Proof. exact enc_weights_are_the_weights. Qed.
Theorem C13_unused_symbols_get_no_code : forall W nmax codes, Forall (fun w => 0 <= w <= Z.of_nat nmax) W ->
  enc_build_from_weights W = ROk codes ->
  forall s, 0 <= s < Z.of_nat (length W) -> nth (Z.to_nat s) W (-1) = 0 -> nth (Z.to_nat s) codes (0, 0) = (0, 0).
Proof. exact enc_codes_unused. Qed.
Theorem C13_shape_contains_weight_one : forall n sh, 2 <= n <= 256 -> shape n = ROk sh -> In 1 sh.
Proof. exact shape_has_one. Qed.

(** the normaliser (limit 6, avoid-zero-bits) is total on the histogram of any weights up to 11 and the result has a
    table description *)
Theorem C13_weight_description_exists : forall data,
  (2 <= length data)%nat -> Forall (fun w => 0 <= w <= 11) data -> 1 <= zmax_list data ->
  exists al probs d, norm_counts (weight_hist data) 6 true = ROk (al, probs) /\ desc_bytes al probs = Some d.
Proof. exact weight_description_exists. Qed.
Print Assumptions C13_weight_description_exists.

Print Assumptions C13_written_weights_are_the_weights.
Print Assumptions C13_unused_symbols_get_no_code.
Print Assumptions C13_shape_contains_weight_one.
Print Assumptions C13_weight_description_as_the_compressor_builds_it.
Print Assumptions C13_fse_weight_description_for_every_half_bounded_distribution.
Print Assumptions C13_fse_compressed_weight_description_roundtrip_table.
Print Assumptions C13_two_state_weight_stream_roundtrip.
Print Assumptions C13_fse_compressed_weight_description_roundtrip.
Print Assumptions C13_direct_weight_description_roundtrip.
Print Assumptions C13_table_of_a_direct_description.
Print Assumptions C13_raw_and_rle_literals_headers.
Print Assumptions C13_raw_literals_decode.
Print Assumptions C13_rle_literals_decode.
Print Assumptions C13_one_stream_headers.
Print Assumptions C13_one_stream_huffman_literals_decode.
(** *** the compressor's code and the decoder's table agree, for EVERY weight list

    [enc_build_from_weights] is the compressor's [build_from_weights]: sort the symbols with a weight by (weight, symbol),
    hand out consecutive codes, shifting right when the weight grows.  In closed form the code of a symbol of weight w is
    (total weight of the lighter symbols) / 2^(w-1) + (number of smaller symbols of the same weight) -- and that is the
    code word the decoder's table holds for the symbol (first index of its block, shortened to the code length), with
    the same length: for every weight list the decoder accepts (at most 255 explicit weights), the compressor being
    given the same weights plus the last one, which the decoder infers *)
Theorem C13_compressor_code_in_closed_form : forall W nmax codes, Forall (fun w => 0 <= w <= Z.of_nat nmax) W ->
  enc_build_from_weights W = ROk codes ->
  forall s, 0 <= s < Z.of_nat (length W) -> let w := nth (Z.to_nat s) W (-1) in 0 < w ->
    nth (Z.to_nat s) codes (0, 0) =
      (below (Z.to_nat (w - 1)) W / 2 ^ (w - 1) + cnt w (firstn (Z.to_nat s) W), Z.log2 (kraft W) - w + 1).
Proof. exact enc_codes_closed_form. Qed.

Theorem C13_compressor_code_is_the_decoder_code : forall ws dec M bits ranks idxs t,
  Forall (fun w => 0 <= w) ws -> (length ws <= 255)%nat ->
  build_table_from_weights ws = ROk (dec, M, bits, ranks, idxs) -> ht_decode t = dec -> ht_max_bits t = M ->
  exists lw codes, 1 <= lw <= M /\ enc_build_from_weights (ws ++ [lw]) = ROk codes /\
    (forall s, 0 <= s <= Z.of_nat (length ws) -> 0 < nth (Z.to_nat s) (ws ++ [lw]) 0 ->
      code_of_dec t s = (fst (nth (Z.to_nat s) codes (0, 0)), Z.to_nat (snd (nth (Z.to_nat s) codes (0, 0))))) /\
    bits = map (bits_of M) (ws ++ [lw]).
Proof. exact encoder_and_decoder_agree. Qed.

(** every complete weight list is accepted: if the weights of all symbols (the last one included) have Kraft sum 2^M with
    M <= 11, the decoder accepts the list without the last weight, builds a table of width M and infers exactly that
    last weight *)
Theorem C13_complete_weights_are_accepted : forall ws lw M,
  Forall (fun w => 0 <= w <= MAX_MAX_NUM_BITS) ws -> 1 <= lw <= M -> M <= MAX_MAX_NUM_BITS ->
  0 < kraft ws -> kraft (ws ++ [lw]) = 2 ^ M ->
  exists dec bits ranks idxs, build_table_from_weights ws = ROk (dec, M, bits, ranks, idxs) /\
    bits = map (fun w => if 0 <? w then M + 1 - w else 0) ws ++ [M + 1 - lw].
Proof. exact complete_weights_are_accepted. Qed.

Example C13_agreement_example :
  match enc_build_from_weights [2; 1; 1; 3], build_table_from_weights [2; 1; 1] with
  | ROk codes, ROk (dec, M, _, _, _) => codes = [(1, 2); (0, 3); (1, 3); (1, 1)] /\ M = 3 /\ map h_sym dec = [1; 2; 0; 0; 3; 3; 3; 3]
  | _, _ => False
  end.
Proof. vm_compute. auto. Qed.

Print Assumptions C13_compressor_code_in_closed_form.
Print Assumptions C13_compressor_code_is_the_decoder_code.
Print Assumptions C13_complete_weights_are_accepted.
Print Assumptions C13_decoder_table_is_a_complete_prefix_code.
Print Assumptions C13_code_words_of_every_table_resolve.
Print Assumptions C13_huffman_literals_section_decodes.
Print Assumptions C13_huffman_literals_header_small.
Print Assumptions C13_huffman_literals_header_large.
Print Assumptions C13_code_conditions_decidable.
Print Assumptions C13_literal_stream_roundtrip.
Print Assumptions C13_shape_valid.
Print Assumptions C13_enc_dec_agree.
Print Assumptions C13_dec_rejects_big_weight.
Print Assumptions C13_dec_accepts_only_complete_codes.
