(** Property C02 -- compress then decompress returns the input.
    [compress_frame] is the model of FrameCompressor::compress (coq/model/FrameEnc.v) with the encoder of one
    compressed block as a parameter; the decoder is the model used for C01-C11. *)
Require Import Zrs.lib.RsPrelude Zrs.gen.Generated Zrs.model.Headers Zrs.model.BlockDec Zrs.model.FrameDec Zrs.model.FrameEnc.
Require Import Zrs.proofs.C15_Frame Zrs.proofs.C02_Roundtrip Zrs.proofs.C02_Fastest.
Require Import Zrs.model.FseDec Zrs.model.SeqSection Zrs.model.BlockEnc Zrs.proofs.C12_SeqStream Zrs.proofs.C02_Block.
Require Import Zrs.model.Matcher Zrs.proofs.C06_Drain Zrs.proofs.C17_Matcher Zrs.proofs.C17_Shape Zrs.proofs.C02_Glue Zrs.proofs.C02_FastBlock.
Require Import Zrs.model.HufDec Zrs.model.LitEnc Zrs.proofs.C02_Concrete.
Require Import Zrs.model.SeqNorm Zrs.proofs.C02_O1.
Require Import Zrs.proofs.C02_HufSide Zrs.proofs.C02_O2Table.
Require Import Zrs.model.HufEnc Zrs.proofs.C13_Agree Zrs.proofs.C02_O2Huffman.
Require Import Permutation.
Require Import Zrs.model.BitStream Zrs.model.SeqEnc Zrs.model.FseEnc Zrs.model.FseNorm Zrs.model.WeightEnc Zrs.model.HufCounts Zrs.proofs.C13_Direct Zrs.proofs.C13_WeightDesc Zrs.proofs.C02_O2Counts Zrs.model.LitComp Zrs.proofs.C02_LitPart Zrs.proofs.C02_Closed.
Open Scope Z_scope.

(** level Uncompressed: every input, every fragmentation of the source reads, every block size up to 128 KiB, every
    window up to 128 MiB, any (reused) compressor state, with or without the hash feature: the frame initialises a
    new decoder, decodes to the end, leaves no byte behind, regenerates exactly the input and carries the checksum
    the compressor computed *)
Theorem C02_uncompressed_roundtrip : forall (cstate : Type) cblock cskip cfallback creset slice wsize hash32 (cs : cstate) data script,
  1 <= Z.of_nat slice <= 131072 -> 1 <= wsize <= 2 ^ 27 ->
  (forall h x, hash32 = Some h -> length (h x) = 4%nat) ->
  exists frame cs' r',
    compress_frame cstate cblock cskip cfallback creset LUncompressed slice wsize hash32 cs
      {| rd_data := data; rd_script := script |} = ROk (frame, cs', r') /\
    exists d1 rest evs s1 d2 s2,
      fdec_reset fdec_new frame = ROk (d1, rest, evs) /\ fd_state d1 = Some s1 /\
      fdec_decode_blocks d1 rest SAll = ROk (d2, [], true) /\ fd_state d2 = Some s2 /\
      buf_content s2 = data /\
      fr_checksum s2 = match hash32 with Some h => Some (le_val (h data)) | None => None end.
Proof. exact uncompressed_roundtrip. Qed.

(** the read loop: whatever sizes the reader hands out, a block is the next [slice] bytes (not last) or all that is
    left (last) *)
Theorem C02_blocks_independent_of_fragmentation : forall fuel slice acc r,
  (length acc < slice)%nat -> (slice - length acc < fuel)%nat ->
  exists r', fill_block fuel slice acc r =
    (if (slice - length acc <=? length (rd_data r))%nat
     then ROk (acc ++ firstn (slice - length acc) (rd_data r), false, r')
     else ROk (acc ++ rd_data r, true, r')) /\
    rd_data r' = skipn (slice - length acc) (rd_data r).
Proof. exact fill_block_spec. Qed.

(** the block loop of every level: the output is the header followed by the encodings of [blocks_of] the input *)
Theorem C02_frame_is_header_then_blocks : forall (cstate : Type) cblock cskip cfallback (creset : cstate -> cstate) fuel lv slice (cs : cstate) r out,
  (1 <= slice)%nat -> (length (rd_data r) < fuel)%nat ->
  drop_reader cstate (compress_loop cstate cblock cskip cfallback fuel lv slice cs r out) =
    (let* (bs, cs') := enc_blocks cstate cblock cskip cfallback lv cs (blocks_of fuel slice (rd_data r)) in ROk (out ++ bs, cs')).
Proof. intros. apply (compress_loop_spec cstate cblock cskip cfallback creset); assumption. Qed.

(** raw and RLE blocks as the compressor writes them are read back for every decoder state *)
Theorem C02_block_header_read_back : forall ty size last payload rest,
  0 <= ty <= 2 -> Z.of_nat size <= 131072 ->
  exists hdr, block_bytes ty size last payload = ROk (hdr ++ payload) /\ length hdr = 3%nat /\
    read_block_header_src ((hdr ++ payload) ++ rest) =
      ROk (last, ty, (if (ty =? 0) || (ty =? 1) then Z.of_nat size else 0), (if ty =? 1 then 1 else Z.of_nat size), payload ++ rest).
Proof. exact block_header_read. Qed.

Theorem C02_rle_block_decodes : forall sc (b : Z) n rest,
  decode_block_content 1 (Z.of_nat n) 1 sc ([b] ++ rest) = ROk (sc_push_raw sc (repeat_z b n), 1, rest).
Proof. exact rle_content. Qed.

Theorem C02_run_detection_is_exact : forall l, all_same l = true -> l = repeat_z (nth 0 l 0) (length l).
Proof. exact all_same_repeat. Qed.

(** level Fastest, abstractly: the same conclusion for every block-level encoder that meets four obligations, stated
    with a relation [Rel] between the encoder state and the decoder state it assumes: (1) an emitted compressed block
    decodes to its input and keeps the states related, (2) a run sent as an RLE block keeps them related, (3) a block
    whose compressed form is discarded for a raw block keeps them related (the obligation finding F5 violated), (4) the
    per-frame reset relates to a new decoder (for initial states satisfying [Cinit]).  Blocks are non-empty and at most
    128 KiB.  The theorem below ([C02_fastest_roundtrip]) discharges all four for the modelled block encoder. *)
Theorem C02_fastest_roundtrip_given_block_encoder : forall (cstate : Type) cblock cskip cfallback (Rel : cstate -> scratch -> Prop),
  (forall cs sc blk body cs', Rel cs sc -> blk <> [] -> Z.of_nat (length blk) <= 131072 ->
     cblock cs blk = (body, cs') -> all_same blk = false ->
     (length body < length blk)%nat -> Z.of_nat (length body) <= MAX_BLOCK_SIZE ->
     exists sc', decompress_block (Z.of_nat (length body)) sc body = ROk sc' /\ sc_content sc' = sc_content sc ++ blk /\ Rel cs' sc') ->
  (forall cs sc blk, Rel cs sc -> blk <> [] -> Z.of_nat (length blk) <= 131072 ->
     all_same blk = true -> Rel (cskip cs blk) (sc_push_raw sc blk)) ->
  (forall cs sc blk body cs', Rel cs sc -> blk <> [] -> Z.of_nat (length blk) <= 131072 ->
     cblock cs blk = (body, cs') -> Rel (cfallback cs') (sc_push_raw sc blk)) ->
  forall creset (Cinit : cstate -> Prop), (forall cs w, Cinit cs -> Rel (creset cs) (scratch_new w)) ->
  forall slice wsize hash32 cs data script frame cs' r',
  Cinit cs -> 1 <= Z.of_nat slice <= 131072 -> 1 <= wsize <= 2 ^ 27 ->
  (forall h x, hash32 = Some h -> length (h x) = 4%nat) ->
  compress_frame cstate cblock cskip cfallback creset LFastest slice wsize hash32 cs
    {| rd_data := data; rd_script := script |} = ROk (frame, cs', r') ->
  exists d1 rest evs s1 d2 s2,
    fdec_reset fdec_new frame = ROk (d1, rest, evs) /\ fd_state d1 = Some s1 /\
    fdec_decode_blocks d1 rest SAll = ROk (d2, [], true) /\ fd_state d2 = Some s2 /\
    buf_content s2 = data /\
    fr_checksum s2 = match hash32 with Some h => Some (le_val (h data)) | None => None end.
Proof. exact fastest_roundtrip. Qed.

(** level Fastest with the block encoder spelled out ([cblock], proofs/C02_Concrete.v): the built-in match finder model,
    [compress_block]'s split of its report into one literal buffer and (literal length, match length, offset + 3)
    triples, the sequences part (count, mode byte, three table descriptions, bit stream), and the literals section --
    for every input, every fragmentation of the reads, every block size up to 128 KiB, every reuse history of the
    compressor, with or without the checksum.  The only things left abstract are the two TABLE BUILDERS, and what is
    assumed of them is decidable per block and evaluated on every block of every run:
      O1  the normaliser [norm] yields, for the sequences of a block, three distributions meeting [section_hyps_b]
          (normalised, within the format's limits, tables build and tile, every used code has states);
      O2  the literals encoder [litenc] yields a header and payload that the decoder reads back as the literals
          ([lit_ok]; raw literals always do -- [C02_raw_literals_meet_O2] -- and Huffman-coded literals do whenever the
          table resolves the code words -- [C13_huffman_literals_section_decodes]), and remembers only a table the
          decoder holds.
    Everything else -- match finder, LZ execution, offset coding, bit streams, headers, block framing, checksum -- is
    proved. *)
Theorem C02_fastest_roundtrip : forall norm litenc,
  (forall seqs, seqs <> [] -> forallb seq_range_b seqs = true -> Z.of_nat (length seqs) <= 98047 ->
     let '(dl, do, dm) := norm seqs in section_hyps_b dl do dm seqs = true) ->
  (forall o lits h, (forall t, o = Some t -> h = t) -> zlen lits <= MAX_BLOCK_SIZE ->
     let '(hdr, payload, o') := litenc o lits in
     exists ht', lit_ok h lits hdr payload ht' /\ (forall t, o' = Some t -> ht' = t)) ->
  forall slice wsize hash32 cs data script frame cs' r',
  Cinit cs -> 1 <= Z.of_nat slice <= 131072 -> 1 <= wsize <= 2 ^ 27 ->
  (forall h x, hash32 = Some h -> length (h x) = 4%nat) ->
  compress_frame cst (cblock norm litenc) cskip cfallback creset LFastest slice wsize hash32 cs
    {| rd_data := data; rd_script := script |} = ROk (frame, cs', r') ->
  exists d1 rest evs s1 d2 s2,
    fdec_reset fdec_new frame = ROk (d1, rest, evs) /\ fd_state d1 = Some s1 /\
    fdec_decode_blocks d1 rest SAll = ROk (d2, [], true) /\ fd_state d2 = Some s2 /\
    buf_content s2 = data /\
    fr_checksum s2 = match hash32 with Some h => Some (le_val (h data)) | None => None end.
Proof. exact fastest_roundtrip_concrete. Qed.

(** obligation O1 is met by the modelled normaliser ([norm_model]: histograms of the three code kinds, normalised by the
    model of build_table_from_counts, which is compared with the real normaliser on every histogram of a run and whose
    distributions are compared with those read out of every real block): for the sequences of any block the three
    distributions are normalised, within the format's limits, their tables build, are well formed and cover every code
    that occurs *)
Theorem C02_normaliser_meets_O1 : forall seqs, seqs <> [] -> forallb seq_range_b seqs = true -> Z.of_nat (length seqs) <= 98047 ->
  let '(dl, do, dm) := norm_model seqs in section_hyps_b dl do dm seqs = true.
Proof. exact norm_model_meets_O1. Qed.

(** ... so that, with that normaliser, the round trip at level Fastest rests on obligation O2 (the literals encoder) alone *)
Theorem C02_fastest_roundtrip_sequences_closed : forall litenc,
  (forall o lits h, (forall t, o = Some t -> h = t) -> zlen lits <= MAX_BLOCK_SIZE ->
     let '(hdr, payload, o') := litenc o lits in
     exists ht', lit_ok h lits hdr payload ht' /\ (forall t, o' = Some t -> ht' = t)) ->
  forall slice wsize hash32 cs data script frame cs' r',
  Cinit cs -> 1 <= Z.of_nat slice <= 131072 -> 1 <= wsize <= 2 ^ 27 ->
  (forall h x, hash32 = Some h -> length (h x) = 4%nat) ->
  compress_frame cst (cblock norm_model litenc) cskip cfallback creset LFastest slice wsize hash32 cs
    {| rd_data := data; rd_script := script |} = ROk (frame, cs', r') ->
  exists d1 rest evs s1 d2 s2,
    fdec_reset fdec_new frame = ROk (d1, rest, evs) /\ fd_state d1 = Some s1 /\
    fdec_decode_blocks d1 rest SAll = ROk (d2, [], true) /\ fd_state d2 = Some s2 /\
    buf_content s2 = data /\
    fr_checksum s2 = match hash32 with Some h => Some (le_val (h data)) | None => None end.
Proof. intros litenc O2. exact (fastest_roundtrip_concrete norm_model litenc norm_model_meets_O1 O2). Qed.

(** a fresh compressor (and every state reached from it) satisfies [Cinit] *)
Example C02_new_compressor_is_initial : Cinit {| c_d := mgd_new (Z.to_nat 131072) 1; c_ht := None |}.
Proof.
  unfold Cinit. cbn [c_d]. destruct (mgd_new_inv (Z.to_nat 131072) 1) as (HI & Hm & _). split; [exact HI|]. rewrite Hm. lia.
Qed.

(** raw literals meet obligation O2 whatever table the decoder holds *)
Theorem C02_raw_literals_meet_O2 : forall h lits, zlen lits <= MAX_BLOCK_SIZE ->
  lit_ok h lits (raw_lit_header (zlen lits)) lits h.
Proof. exact raw_lit_ok. Qed.

(** a compressed block whose literals go out raw (what [compress_block] writes when a block has at most 1024 literals
    or a single literal value): literals header, literal bytes, sequence count, mode byte 0xA8, three table
    descriptions and the bit stream -- [decompress_block] reads all of it back and does exactly "execute the coded
    sequences over the coded literals", from any decoder state with the right alphabets.  The side conditions on the
    distributions and tables are decidable ([section_hyps_b]); they are evaluated, and the block model is compared byte
    for byte with the real block, on every raw-literal block the real compressor emits in the run. *)
Theorem C02_raw_literal_block_decodes : forall lits dl do dm seqs body sc,
  block_raw_lits lits dl do dm seqs = ROk body ->
  zlen lits <= MAX_BLOCK_SIZE -> Z.of_nat (length seqs) <= 98047 ->
  (seqs <> [] -> section_hyps_b dl do dm seqs = true) ->
  t_max_symbol (fs_ll (sc_fse sc)) = MAX_LITERAL_LENGTH_CODE -> t_max_symbol (fs_of (sc_fse sc)) = MAX_OFFSET_CODE ->
  t_max_symbol (fs_ml (sc_fse sc)) = MAX_MATCH_LENGTH_CODE ->
  decompress_block (zlen body) sc body =
    match seqs with
    | [] => ROk {| sc_huf := sc_huf sc; sc_fse := sc_fse sc; sc_buf := db_push (sc_buf sc) lits; sc_hist := sc_hist sc |}
    | _ =>
        match build_table MAX_LITERAL_LENGTH_CODE dl, build_table MAX_MATCH_LENGTH_CODE dm, build_table MAX_OFFSET_CODE do with
        | ROk Dll, ROk Dml, ROk Dof =>
            let* (buf, hist) := execute_sequences seqs lits (sc_buf sc) (sc_hist sc) in
            ROk {| sc_huf := sc_huf sc; sc_fse := C12_SeqStream.sc Dll Dml Dof; sc_buf := buf; sc_hist := hist |}
        | _, _, _ => RErr "tables"
        end
    end.
Proof. exact raw_literal_block_decodes. Qed.

(** one block of level Fastest, end to end, when the literals go out raw: the built-in match finder's step on [data]
    (any reachable match finder state, any block that fits its window), what the block encoder makes of its report,
    the block body, the decoder: the decoder's buffer grows by exactly [data], and it again ends with the bytes the
    match finder retains, so the statement applies to the next block as well *)
Theorem C02_fastest_block_step_with_raw_literals : forall d data d' seqs dl do dm body sc pre,
  DInv d -> (length data <= max_window d)%nat -> Z.of_nat (length data) <= MAX_BLOCK_SIZE ->
  mstep d (OpBlock data false) = ROk (d', Some seqs) ->
  block_raw_lits (mseqs_lits seqs) dl do dm (mseqs_seqs seqs) = ROk body ->
  (mseqs_seqs seqs <> [] -> section_hyps_b dl do dm (mseqs_seqs seqs) = true) ->
  t_max_symbol (fs_ll (sc_fse sc)) = MAX_LITERAL_LENGTH_CODE -> t_max_symbol (fs_of (sc_fse sc)) = MAX_OFFSET_CODE ->
  t_max_symbol (fs_ml (sc_fse sc)) = MAX_MATCH_LENGTH_CODE ->
  db_wf (sc_buf sc) -> db_rev (sc_buf sc) = rev (retained d) ++ pre -> hist3 (sc_hist sc) ->
  exists sc' pre',
    decompress_block (zlen body) sc body = ROk sc' /\
    db_rev (sc_buf sc') = rev data ++ db_rev (sc_buf sc) /\
    db_wf (sc_buf sc') /\ db_rev (sc_buf sc') = rev (retained d') ++ pre' /\ hist3 (sc_hist sc') /\
    sc_huf sc' = sc_huf sc /\ db_dict (sc_buf sc') = db_dict (sc_buf sc) /\ db_window (sc_buf sc') = db_window (sc_buf sc) /\
    t_max_symbol (fs_ll (sc_fse sc')) = MAX_LITERAL_LENGTH_CODE /\ t_max_symbol (fs_of (sc_fse sc')) = MAX_OFFSET_CODE /\
    t_max_symbol (fs_ml (sc_fse sc')) = MAX_MATCH_LENGTH_CODE.
Proof. exact fastest_step_raw_literals. Qed.

(** the table part of obligation O2, for EVERY table: whatever table the decoder builds (at most 255 explicit weights) and
    whatever literals are made of symbols that table delivers (16 .. 128 Ki of them), the side conditions of the Huffman
    literal block theorem hold -- the code read off the table is well formed and resolved, and no stream reaches the
    64 KiB limit of the jump table.  What remains of O2 is that the compressor writes the section the model writes
    (compared byte by byte on every block of every run) *)
Theorem C02_huffman_side_conditions_hold_for_every_table : forall ht src t used lits,
  huf_build_decoder ht src = ROk (t, used) ->
  Forall (fun w => 0 <= w) (ht_weights t) -> (length (ht_weights t) <= 255)%nat ->
  16 <= Z.of_nat (length lits) <= 131072 ->
  Forall (fun s => exists i, 0 <= i < 2 ^ ht_max_bits t /\ h_sym (nth_h (ht_decode t) i) = s) lits ->
  huf_side_b t (code_of_dec t) lits = true.
Proof. exact huf_side_holds. Qed.

(** O2 reduced to a comparison of bytes: if the literals section the compressor writes is the section of the model --
    header, table description, four streams coded with the code read off the table the DECODER builds from that
    description (or, treeless, off the table the decoder already holds) -- then it meets O2 ([lit_ok]); no condition
    on the table remains ([built]: it came out of the decoder's builder with at most 255 explicit weights;
    [deliverable]: every literal is a symbol the table can deliver) *)
Theorem C02_model_literals_section_meets_O2 : forall h t ty desc lits,
  built t -> deliverable t lits -> 16 <= Z.of_nat (length lits) <= 131072 ->
  let code := code_of_dec t in
  let payload := desc ++ huf4_bytes code lits in
  (ty = 2 /\ huf_build_decoder h payload = ROk (t, zlen desc)) \/ (ty = 3 /\ desc = [] /\ h = t) ->
  zlen payload < zlen lits ->
  lit_ok h lits (huf_lit_header ty (zlen lits) (zlen payload)) payload t.
Proof. exact model_section_meets_O2. Qed.

(** O2 for Huffman-coded literals, for ANY weights: whatever weights the compressor chooses -- provided the decoder accepts
    them and every literal has a code -- the section it writes (header, a weight description the decoder reads back as
    those weights [both forms do: C13], four streams coded with the compressor's own canonical code [code_fn codes])
    is read back by the decoder as exactly the literals.  How the weights are chosen (histogram, rank order,
    distribute_weights) plays no role for correctness; what remains of O2 is that the compressor's output has this
    form (compared byte for byte on every block of every run) *)
Theorem C02_huffman_literals_meet_O2_for_any_weights : forall ws dec M bits ranks idxs,
  Forall (fun w => 0 <= w) ws -> (length ws <= 255)%nat ->
  build_table_from_weights ws = ROk (dec, M, bits, ranks, idxs) ->
  exists lw codes, 1 <= lw <= M /\ enc_build_from_weights (ws ++ [lw]) = ROk codes /\ bits = map (bits_of M) (ws ++ [lw]) /\
    forall h desc lits ft,
      Forall (fun s => 0 <= s <= Z.of_nat (length ws) /\ 0 < nth (Z.to_nat s) (ws ++ [lw]) 0) lits ->
      16 <= Z.of_nat (length lits) <= 131072 ->
      let payload := desc ++ huf4_bytes (code_fn codes) lits in
      read_weights h payload = ROk (ws, ft, zlen desc) -> zlen payload < zlen lits ->
      exists t, lit_ok h lits (huf_lit_header 2 (zlen lits) (zlen payload)) payload t.
Proof. exact huffman_section_meets_O2. Qed.

(** ... and in terms of the compressor's own data: EVERY complete weight list (Kraft sum 2^M, M <= 11, at most 256
    symbols).  The decoder accepts the list without the last weight and infers it; the section -- a description read back
    as the weights, four streams in the compressor's canonical code for the full list -- is read back as the literals *)
Theorem C02_huffman_literals_meet_O2_for_every_complete_code : forall ws lw M,
  Forall (fun w => 0 <= w <= MAX_MAX_NUM_BITS) ws -> (length ws <= 255)%nat -> 1 <= lw <= M -> M <= MAX_MAX_NUM_BITS ->
  0 < kraft ws -> kraft (ws ++ [lw]) = 2 ^ M ->
  exists codes, enc_build_from_weights (ws ++ [lw]) = ROk codes /\
    forall h desc lits ft,
      Forall (fun s => 0 <= s <= Z.of_nat (length ws) /\ 0 < nth (Z.to_nat s) (ws ++ [lw]) 0) lits ->
      16 <= Z.of_nat (length lits) <= 131072 ->
      let payload := desc ++ huf4_bytes (code_fn codes) lits in
      read_weights h payload = ROk (ws, ft, zlen desc) -> zlen payload < zlen lits ->
      exists t, lit_ok h lits (huf_lit_header 2 (zlen lits) (zlen payload)) payload t.
Proof. exact huffman_section_for_complete_weights. Qed.

(** ... and for the weights the compressor uses: for every alphabet size n = 2..256 its weight multiset [shape n] is a
    complete code of depth at most 11 (C13, complete sweep); HOWEVER those weights are distributed over the symbols --
    the compressor does it by rank of the counts, unused symbols get weight 0 --, the resulting list is complete, the
    decoder accepts it and the Huffman-coded section is read back as the literals *)
Theorem C02_huffman_literals_meet_O2_for_every_assignment_of_the_shape : forall n sh W,
  2 <= n <= 256 -> shape n = ROk sh -> Permutation (filter (fun w => 0 <? w) W) sh ->
  Forall (fun w => 0 <= w) W -> (length W <= 256)%nat -> 0 < last W 0 ->
  let ws := removelast W in let lw := last W 0 in
  exists codes, enc_build_from_weights W = ROk codes /\
    forall h desc lits ft,
      Forall (fun s => 0 <= s <= Z.of_nat (length ws) /\ 0 < nth (Z.to_nat s) W 0) lits ->
      16 <= Z.of_nat (length lits) <= 131072 ->
      let payload := desc ++ huf4_bytes (code_fn codes) lits in
      read_weights h payload = ROk (ws, ft, zlen desc) -> zlen payload < zlen lits ->
      exists t, lit_ok h lits (huf_lit_header 2 (zlen lits) (zlen payload)) payload t.
Proof. exact huffman_section_for_every_assignment_of_the_shape. Qed.

(** ... and when the compressor re-uses the table of an earlier block (treeless section): the streams are coded with its code
    for the earlier weights, the decoder still holds the table it built from them, and reads back exactly the literals *)
Theorem C02_treeless_huffman_literals_meet_O2 : forall ht0 src t used,
  huf_build_decoder ht0 src = ROk (t, used) -> Forall (fun w => 0 <= w) (ht_weights t) -> (length (ht_weights t) <= 255)%nat ->
  exists lw codes, enc_build_from_weights (ht_weights t ++ [lw]) = ROk codes /\
    forall lits,
      Forall (fun s => 0 <= s <= Z.of_nat (length (ht_weights t)) /\ 0 < nth (Z.to_nat s) (ht_weights t ++ [lw]) 0) lits ->
      16 <= Z.of_nat (length lits) <= 131072 ->
      let payload := huf4_bytes (code_fn codes) lits in
      zlen payload < zlen lits ->
      lit_ok t lits (huf_lit_header 3 (zlen lits) (zlen payload)) payload t.
Proof. exact treeless_section_meets_O2. Qed.

(** the rank assignment of [build_from_counts]: whatever the counts, the weights of the shape land on exactly the
    symbols that occur *)
Theorem C02_weights_by_rank_are_an_assignment_of_the_shape : forall counts, (length counts <= 256)%nat ->
  let n := Z.of_nat (length (filter nzc counts)) in 2 <= n ->
  exists sh W, shape n = ROk sh /\ weights_from_counts counts = ROk W /\ length W = length counts /\
    Permutation (filter posw W) sh /\ Forall (fun w => 0 <= w) W /\
    (forall i, (i < length counts)%nat -> (0 < nth i W 0 <-> nth i counts 0 <> 0)).
Proof. exact weights_from_counts_spec. Qed.

(** the Huffman-coded literals section from the literals alone: table of [build_from_data], description of the weights
    derived back from the code lengths (direct form up to 16 written weights, FSE-compressed above; for the latter the
    < 128 bytes assertion of the source is the one hypothesis), four streams *)
Theorem C02_compressor_huffman_section_from_the_literals : forall data a b h,
  Forall (fun s => 0 <= s <= 255) data -> In a data -> In b data -> a <> b ->
  16 <= zlen data <= 131072 ->
  exists codes, build_from_data data = ROk codes /\
    let written := removelast (enc_weights codes) in
    (1 <= length written <= 255)%nat /\
    ((length written <= 16)%nat ->
       let payload := direct_desc written ++ huf4_bytes (code_fn codes) data in
       zlen payload < zlen data ->
       exists t, lit_ok h data (huf_lit_header 2 (zlen data) (zlen payload)) payload t) /\
    ((16 < length written)%nat -> t_max_symbol (ht_fse h) = 255 ->
       exists al probs d D, norm_counts (weight_hist written) 6 true = ROk (al, probs) /\ desc_bytes al probs = Some d /\
         fse_build_from_probabilities (ht_fse h) al probs = ROk D /\
         let stream := stream_bytes (weight_fields (enc_of_dec D) written) in
         let hb := zlen d + zlen stream in
         hb < 128 ->
         let payload := (hb :: d ++ stream) ++ huf4_bytes (code_fn codes) data in
         zlen payload < zlen data ->
         exists t, lit_ok h data (huf_lit_header 2 (zlen data) (zlen payload)) payload t).
Proof. exact compressor_huffman_section. Qed.

(** the premises are met: 48 literals over three bytes, direct description, payload shorter than the literals *)
Example C02_compressor_huffman_section_example :
  let data := flat_map (fun _ => [7; 7; 7; 9; 7; 12]) (seq 0 8) in
  Forall (fun s => 0 <= s <= 255) data /\ In 7 data /\ In 9 data /\ 16 <= zlen data <= 131072 /\
  exists codes, build_from_data data = ROk codes /\ (length (removelast (enc_weights codes)) <= 16)%nat /\
    zlen (direct_desc (removelast (enc_weights codes)) ++ huf4_bytes (code_fn codes) data) < zlen data.
Proof.
  cbv zeta. split; [repeat constructor; lia|]. split; [vm_compute; tauto|]. split; [vm_compute; tauto|]. split; [vm_compute; split; discriminate|].
  eexists. split; [vm_compute; reflexivity|]. split; [vm_compute; lia|]. vm_compute. reflexivity.
Qed.


(** the compressor's own literals part, block by block (model/LitComp.v: raw literals, a new table with either
    description, or the remembered table): if the decoder holds the table built from the description the remembered
    table was written with, the section is read back as exactly the literals and the same holds afterwards *)
Theorem C02_literals_part_meets_O2 : forall prev lits h hdr payload prev',
  tab_rel prev h -> hinv h -> Forall (fun s => 0 <= s <= 255) lits -> zlen lits <= MAX_BLOCK_SIZE ->
  literals_part prev lits = ROk (hdr, payload, prev') ->
  exists ht', lit_ok h lits hdr payload ht' /\ tab_rel prev' ht' /\ hinv ht'.
Proof. exact literals_part_meets_O2. Qed.

(** the relation holds at the start of every frame (nothing remembered, a new decoder) *)
Example C02_literals_part_initially : tab_rel None huf_new /\ hinv huf_new.
Proof. split; [intros codes E; discriminate|reflexivity]. Qed.

(** ... and the model takes both Huffman endings on concrete literals: a new table for the first buffer (literals type
    2), the remembered table for a second buffer with nearly the same statistics (type 3, table kept) *)
Example C02_literals_part_example :
  let d1 := flat_map (fun _ => [1; 1; 1; 2; 1; 3; 1; 1; 2; 1]) (seq 0 120) in
  let d2 := flat_map (fun _ => [1; 1; 3; 2; 1; 3; 1; 1; 2; 1]) (seq 0 120) in
  exists hdr1 p1 c hdr2 p2,
    literals_part None d1 = ROk (hdr1, p1, Some c) /\ nth 0 hdr1 0 mod 4 = 2 /\
    literals_part (Some c) d2 = ROk (hdr2, p2, Some c) /\ nth 0 hdr2 0 mod 4 = 3.
Proof.
  cbv zeta. do 5 eexists. split; [vm_compute; reflexivity|]. split; [reflexivity|]. split; [vm_compute; reflexivity|reflexivity].
Qed.

(** level Fastest with nothing left as a parameter: the match finder model, the normaliser model (O1 proved) and the
    modelled literals part (O2 proved block by block, threaded through the frame with the remembered-table relation)
    -- every input, every fragmentation of the reads, every block size, every window, every reuse history *)
Theorem C02_fastest_roundtrip_closed : forall slice wsize hash32 cs data script frame cs' r',
  Cinit2 _ cs -> 1 <= Z.of_nat slice <= 131072 -> 1 <= wsize <= 2 ^ 27 ->
  (forall h x, hash32 = Some h -> length (h x) = 4%nat) ->
  compress_frame (cst2 (option codes_t)) (cblock2 norm_model _ litenc_model) (cskip2 _) (cfallback2 _ None) (creset2 _ None) LFastest slice wsize hash32 cs
    {| rd_data := data; rd_script := script |} = ROk (frame, cs', r') ->
  exists d1 rest evs s1 d2 s2,
    fdec_reset fdec_new frame = ROk (d1, rest, evs) /\ fd_state d1 = Some s1 /\
    fdec_decode_blocks d1 rest SAll = ROk (d2, [], true) /\ fd_state d2 = Some s2 /\
    buf_content s2 = data /\
    fr_checksum s2 = match hash32 with Some h => Some (le_val (h data)) | None => None end.
Proof. exact fastest_roundtrip_closed. Qed.

(** a fresh compressor satisfies its premise *)
Example C02_new_compressor_is_initial_closed : Cinit2 _ {| c2_d := mgd_new (Z.to_nat 131072) 1; c2_ht := @None codes_t |}.
Proof.
  unfold Cinit2. cbn [c2_d]. destruct (mgd_new_inv (Z.to_nat 131072) 1) as (HI & Hm & _). split; [exact HI|]. rewrite Hm. lia.
Qed.

Print Assumptions C02_fastest_roundtrip_closed.
Print Assumptions C02_literals_part_meets_O2.
Print Assumptions C02_compressor_huffman_section_from_the_literals.
Print Assumptions C02_weights_by_rank_are_an_assignment_of_the_shape.
Print Assumptions C02_treeless_huffman_literals_meet_O2.
Print Assumptions C02_huffman_literals_meet_O2_for_every_assignment_of_the_shape.
Print Assumptions C02_huffman_literals_meet_O2_for_every_complete_code.
Print Assumptions C02_huffman_literals_meet_O2_for_any_weights.
Print Assumptions C02_model_literals_section_meets_O2.
Print Assumptions C02_huffman_side_conditions_hold_for_every_table.
Print Assumptions C02_fastest_block_step_with_raw_literals.
Print Assumptions C02_raw_literal_block_decodes.
Print Assumptions C02_fastest_roundtrip_given_block_encoder.
Print Assumptions C02_fastest_roundtrip.
Print Assumptions C02_normaliser_meets_O1.
Print Assumptions C02_fastest_roundtrip_sequences_closed.
Print Assumptions C02_raw_literals_meet_O2.
Print Assumptions C02_uncompressed_roundtrip.
Print Assumptions C02_blocks_independent_of_fragmentation.
Print Assumptions C02_frame_is_header_then_blocks.
Print Assumptions C02_block_header_read_back.
Print Assumptions C02_rle_block_decodes.
Print Assumptions C02_run_detection_is_exact.
