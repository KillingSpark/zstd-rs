(** Property C12 -- FSE tables equal the specification's; FSE encoder and decoder are exact inverses.
    Proved here: the predefined tables the decoder builds from the (generated, i.e. read from the source on this run)
    default distributions are libzstd's published tables, and both copies of the distributions equal libzstd's; for
    every accuracy log 5..9 and every probability the state ranges a symbol receives tile the whole state space and stay
    inside the table (from a closed form of the state ranges, C12_Fse.calc_closed_form); the spreading step visits every
    state exactly once (evaluated for the five table sizes).
    NOT yet theorems (covered by the correspondence run with the independent RFC transcription as oracle): the general
    statement over ALL normalized distributions that the built table is the specification's; the compressor's
    normalisation heuristic; the encoder/decoder stream round trip. *)
Require Import Zrs.lib.RsPrelude Zrs.gen.RefTables Zrs.gen.Generated Zrs.model.BitIO Zrs.model.FseDec.
Require Import Zrs.proofs.C12_Fse.
Require Import Zrs.model.BitIO Zrs.model.BitStream Zrs.model.SeqEnc Zrs.model.BlockDec Zrs.proofs.C12_Stream Zrs.proofs.C12_SeqStream Zrs.proofs.C12_Predef.
Require Import Zrs.model.FseEnc Zrs.model.SeqSection Zrs.proofs.C12_Desc Zrs.proofs.C12_Section.
Require Import Zrs.proofs.C12_SeqStreamR Zrs.proofs.C12_Modes Zrs.proofs.C12_AvoidBits.
Require Import Zrs.model.FseNorm Zrs.proofs.C12_Norm Zrs.proofs.C12_NormTotal Zrs.proofs.C12_TableWf Zrs.proofs.C12_Covers Zrs.proofs.C12_General.
Open Scope Z_scope.

Theorem C12_ll_predefined_eq_ref :
  rows_agree (dtable MAX_LITERAL_LENGTH_CODE LL_DEFAULT_ACC_LOG LITERALS_LENGTH_DEFAULT_DISTRIBUTION)
             ref_LL_defaultDTable ref_LL_base ref_LL_bits = true.
Proof. exact ll_predefined_eq_ref. Qed.
Theorem C12_ml_predefined_eq_ref :
  rows_agree (dtable MAX_MATCH_LENGTH_CODE ML_DEFAULT_ACC_LOG MATCH_LENGTH_DEFAULT_DISTRIBUTION)
             ref_ML_defaultDTable ref_ML_base ref_ML_bits = true.
Proof. exact ml_predefined_eq_ref. Qed.
Theorem C12_of_predefined_eq_ref :
  of_rows_agree (dtable MAX_OFFSET_CODE OF_DEFAULT_ACC_LOG OFFSET_DEFAULT_DISTRIBUTION) ref_OF_defaultDTable = true.
Proof. exact of_predefined_eq_ref. Qed.

Theorem C12_distributions_eq_ref :
  LITERALS_LENGTH_DEFAULT_DISTRIBUTION = ref_LL_defaultNorm /\ MATCH_LENGTH_DEFAULT_DISTRIBUTION = ref_ML_defaultNorm /\
  OFFSET_DEFAULT_DISTRIBUTION = ref_OF_defaultNorm /\
  LL_DIST = ref_LL_defaultNorm /\ ML_DIST = ref_ML_defaultNorm /\ OF_DIST = ref_OF_defaultNorm /\
  LL_DEFAULT_ACC_LOG = 6 /\ ML_DEFAULT_ACC_LOG = 6 /\ OF_DEFAULT_ACC_LOG = 5 /\
  LL_MAX_LOG = 9 /\ ML_MAX_LOG = 9 /\ OF_MAX_LOG = 8.
Proof. exact distributions_eq_ref. Qed.

Theorem C12_state_ranges_partition : forall al p, 5 <= al <= 9 -> 1 <= p <= 2 ^ al -> partition_check al p = true.
Proof. exact state_ranges_partition. Qed.

Theorem C12_state_range_in_table : forall al p k, 5 <= al <= 9 -> 1 <= p <= 2 ^ al -> 0 <= k < p ->
  let '(bl, nb) := calc_baseline_and_numbits (2 ^ al) p k in 0 <= nb <= al /\ 0 <= bl /\ bl + 2 ^ nb <= 2 ^ al.
Proof. exact state_range_in_table. Qed.

Theorem C12_spreading_step_is_a_permutation : forall al, 5 <= al <= 9 -> orbit_check al = true.
Proof. exact spreading_step_is_a_permutation. Qed.

(** backward bit streams: fields written least significant bit first, then a 1 bit and zero padding, are read back
    from the end in reverse order with the same values, and the stream is then exactly exhausted -- for every list
    of fields (this is how FSE-coded sequences, FSE-coded Huffman weights and Huffman-coded literals are framed) *)
Theorem C12_backward_stream_inverse : forall fs, Forall field_ok fs ->
  exists r, rbr_skip_padding (rbr_new (stream_bytes fs)) = Some r /\
            let '(vals, r') := read_fields r (map snd (rev fs)) in
            vals = map fst (rev fs) /\ rbr_bits_remaining r' = 0.
Proof. exact stream_inverse. Qed.

(** the sequences bit stream: what the compressor writes for a list of sequences (field order and state selection of
    encode_sequences, with the encoder tables derived from the decoding tables -- the executable model whose output is
    compared byte for byte with the real compressor's on every run) is read by the steps of decode_sequences back
    into the same sequences, consuming the stream exactly; for every list of sequences and all tables in which every
    state index is covered by a state of each used symbol (a decidable property, implied by the tiling of state ranges) *)
Theorem C12_sequences_stream_roundtrip : forall Dll Dml Dof sl sm so qs,
  table_wf Dll -> table_wf Dml -> table_wf Dof ->
  Forall (covers Dll) sl -> Forall (covers Dml) sm -> Forall (covers Dof) so ->
  qs <> [] -> Forall cseq_ok qs -> Forall (q_in sl sm so) qs ->
  let bytes := stream_bytes (enc_fields (enc_of_dec Dll) (enc_of_dec Dml) (enc_of_dec Dof) qs) in
  exists r0 ll r1 of r2 ml r3 vals rf,
    rbr_skip_padding (rbr_new bytes) = Some r0 /\
    fse_init_state Dll r0 = ROk (ll, r1) /\ fse_init_state Dof r1 = ROk (of, r2) /\ fse_init_state Dml r2 = ROk (ml, r3) /\
    seq_loop (length qs) (Z.of_nat (length qs)) (sc Dll Dml Dof) ll ml of r3 0 [] = ROk (rev vals, rf) /\
    Forall2 (fun q v => cseq_value q = Some v) qs vals /\
    rbr_bits_remaining rf = 0.
Proof. exact derived_encoder_roundtrip. Qed.

(** ... and for the three predefined tables the hypotheses hold (checked by complete evaluation): sequences coded with
    the predefined tables round-trip unconditionally *)
Theorem C12_predefined_sequences_roundtrip : forall qs,
  qs <> [] -> Forall cseq_ok qs -> Forall (q_in (codes 36) (codes 53) (codes 29)) qs ->
  let bytes := stream_bytes (enc_fields (enc_of_dec D_ll) (enc_of_dec D_ml) (enc_of_dec D_of) qs) in
  exists r0 ll r1 of r2 ml r3 vals rf,
    rbr_skip_padding (rbr_new bytes) = Some r0 /\
    fse_init_state D_ll r0 = ROk (ll, r1) /\ fse_init_state D_of r1 = ROk (of, r2) /\ fse_init_state D_ml r2 = ROk (ml, r3) /\
    seq_loop (length qs) (Z.of_nat (length qs)) (sc D_ll D_ml D_of) ll ml of r3 0 [] = ROk (rev vals, rf) /\
    Forall2 (fun q v => cseq_value q = Some v) qs vals /\
    rbr_bits_remaining rf = 0.
Proof. exact predefined_sequences_roundtrip. Qed.

(** table descriptions: what the compressor's [write_table] emits for a normalised distribution (every probability
    >= -1, total 2^accuracy_log, last entry non-zero) is read by the decoder's [read_probabilities] back into exactly
    that distribution and accuracy log, consuming exactly the bytes written -- for every such distribution and whatever
    follows the description (inside a frame at least one byte always does).  The writer model is compared byte for
    byte with the real writer on every run, and every distribution the real normaliser produces in the run is
    checked to satisfy [dist_okb]. *)
Theorem C12_table_description_roundtrip : forall acc_log probs max_symbol max_log rest,
  5 <= acc_log <= 20 -> acc_log <= max_log -> dist_ok acc_log probs ->
  Z.of_nat (length probs) <= max_symbol + 1 -> rest <> [] ->
  exists d, desc_bytes acc_log probs = Some d /\
    read_probabilities max_symbol (d ++ rest) max_log = ROk (acc_log, probs, Z.of_nat (length d)).
Proof. exact description_roundtrip. Qed.

(** a whole sequences section: the three table descriptions followed by the bit stream, as the compressor lays them
    out (mode byte 0xA8), is decoded by [decode_sequences] -- from whatever tables the decoder held before -- into
    exactly the sequences that were coded, leaving the decoder with the tables of the three distributions.  The side
    conditions ([section_hyps_b]: normalised distributions within the format's limits, tables that build and tile, every
    used code covered, values in the coded ranges) are decidable and are evaluated on every section the real compressor
    emits in the run, where the model's section is also compared byte for byte with the real one. *)
Theorem C12_sequence_section_roundtrip : forall dl do dm seqs bytes s,
  section_hyps_b dl do dm seqs = true -> section_bytes dl do dm seqs = ROk bytes ->
  t_max_symbol (fs_ll s) = MAX_LITERAL_LENGTH_CODE -> t_max_symbol (fs_of s) = MAX_OFFSET_CODE ->
  t_max_symbol (fs_ml s) = MAX_MATCH_LENGTH_CODE ->
  exists Dll Dml Dof,
    build_table MAX_LITERAL_LENGTH_CODE dl = ROk Dll /\ build_table MAX_MATCH_LENGTH_CODE dm = ROk Dml /\
    build_table MAX_OFFSET_CODE do = ROk Dof /\
    decode_sequences (Z.of_nat (length seqs)) (Some MODES_ALL_ENCODED) bytes s = ROk (sc Dll Dml Dof, seqs).
Proof. exact section_bytes_roundtrip. Qed.

(** the compressor's normaliser ([build_table_from_counts] with the zero-bit avoidance the block encoder always asks
    for): for every histogram of at least two entries whose last entry is positive (the histogram is cut after the
    largest code that occurs), whatever it returns is a normalised distribution over the same alphabet with an accuracy
    log in 5..max_log -- so the description round trip above applies to it.  (The model is compared with the real
    normaliser, accuracy log and every probability, on every histogram of the run; a histogram with a single entry
    gives [16; 16] at accuracy log 5.) *)
Theorem C12_normaliser_output_is_normalised : forall counts max_log al probs,
  5 <= max_log -> Forall (fun c => 0 <= c) counts -> 0 < last counts 0 -> (2 <= length counts)%nat ->
  norm_counts counts max_log true = ROk (al, probs) ->
  dist_ok al probs /\ 5 <= al <= max_log /\ length probs = length counts /\ Forall (fun p => 0 <= p) probs /\
  zsum probs = 2 ^ al /\ (forall i, 0 < nth i counts 0 -> 1 <= nth i probs 0).
Proof. exact norm_counts_normalised. Qed.

(** ... and it always returns: no unwrap of an empty selection, no failed assertion, for every histogram of 2..256
    entries with a positive last entry and the table sizes the block encoder uses (8, 9) *)
Theorem C12_normaliser_never_panics : forall counts max_log,
  8 <= max_log -> Forall (fun c => 0 <= c) counts -> 0 < last counts 0 -> (2 <= length counts <= 256)%nat ->
  exists al probs, norm_counts counts max_log true = ROk (al, probs).
Proof. exact norm_counts_total. Qed.

(** the general table theorem for distributions without "less than one" probabilities (what the normaliser produces):
    for every accuracy log 5..9 and every vector of non-negative probabilities summing to 2^accuracy_log, the decoder's
    table construction succeeds, the table is well formed, and every symbol with a positive probability has states
    whose ranges cover the whole state space -- the hypotheses of the stream and section theorems *)
Theorem C12_every_built_table_is_well_formed : forall t acc_log probs D, 0 < acc_log ->
  fse_build_from_probabilities t acc_log probs = ROk D -> table_wf D.
Proof. exact built_table_is_well_formed. Qed.
Theorem C12_built_tables_cover_their_symbols : forall al probs ms,
  5 <= al <= 9 -> Forall (fun p => 0 <= p) probs -> zsum probs = 2 ^ al ->
  (length probs <= 256)%nat -> Z.of_nat (length probs) <= ms + 1 ->
  exists D, fse_build_from_probabilities (fse_new ms) al probs = ROk D /\
    forall i, (i < length probs)%nat -> 1 <= nth i probs 0 -> covers D (Z.of_nat i).
Proof. exact built_table_covers. Qed.

Example C12_normaliser_single_symbol : norm_counts [7] 9 true = ROk (5, [16; 16]).
Proof. vm_compute. reflexivity. Qed.

Theorem C12_normalised_is_decidable : forall acc_log probs, dist_okb acc_log probs = true -> dist_ok acc_log probs.
Proof. exact dist_okb_ok. Qed.

Example C12_predefined_distributions_are_normalised :
  dist_okb LL_DEFAULT_ACC_LOG LITERALS_LENGTH_DEFAULT_DISTRIBUTION = true /\
  dist_okb ML_DEFAULT_ACC_LOG MATCH_LENGTH_DEFAULT_DISTRIBUTION = true /\
  dist_okb OF_DEFAULT_ACC_LOG OFFSET_DEFAULT_DISTRIBUTION = true.
Proof. vm_compute. repeat split. Qed.

(** *** any combination of the four table modes

    [tmode]: FSE compressed (a written description), predefined, RLE (one byte), repeat (what the decoder holds).
    [mtable m prev prev_rle ... D rle]: the table and RLE byte the decoder is meant to hold afterwards; [tab_ready]: a
    table in state mode is well formed and covers the codes used (true of every table built from a normalised
    distribution: C12_general_table_theorem), an RLE "table" codes the one symbol.  The writer uses the encoder
    derived from the table, or, for an RLE table, writes no bits at all ([E_rle]).  Whatever the three modes, the decoder
    ends up with exactly those tables and RLE bytes and returns exactly the sequences that were coded. *)
Theorem C12_sequences_section_with_any_table_modes :
  forall (mll mof mml : tmode) (s : fse_scratch) (Dll Dof Dml : fse_table) (rll rof rml : option Z),
  mtable mll (fs_ll s) (fs_ll_rle s) LL_MAX_LOG MAX_LITERAL_LENGTH_CODE LL_DEFAULT_ACC_LOG LITERALS_LENGTH_DEFAULT_DISTRIBUTION Dll rll ->
  mtable mof (fs_of s) (fs_of_rle s) OF_MAX_LOG MAX_OFFSET_CODE OF_DEFAULT_ACC_LOG OFFSET_DEFAULT_DISTRIBUTION Dof rof ->
  mtable mml (fs_ml s) (fs_ml_rle s) ML_MAX_LOG MAX_MATCH_LENGTH_CODE ML_DEFAULT_ACC_LOG MATCH_LENGTH_DEFAULT_DISTRIBUTION Dml rml ->
  forall sl sm so, tab_ready Dll rll sl -> tab_ready Dml rml sm -> tab_ready Dof rof so ->
  forall qs, qs <> [] -> Forall cseq_ok qs -> Forall (q_in sl sm so) qs ->
  let stream := stream_bytes (enc_fields (enc_for Dll rll) (enc_for Dml rml) (enc_for Dof rof) qs) in
  exists vals,
    decode_sequences (Z.of_nat (length qs)) (Some (modes_byte mll mof mml)) (mbytes mll ++ mbytes mof ++ mbytes mml ++ stream) s =
      ROk (scr Dll rll Dml rml Dof rof, vals) /\
    Forall2 (fun q v => cseq_value q = Some v) qs vals.
Proof. exact sequence_section_roundtrip_modes. Qed.

(** every mode is available: the predefined tables are ready for all codes of their alphabets, an RLE byte within the
    alphabet is ready for its symbol, repeat re-uses whatever is held (a table or an RLE byte) *)
Theorem C12_every_mode_is_available :
  (forall prev rle, t_max_symbol prev = MAX_LITERAL_LENGTH_CODE ->
     mtable MPredef prev rle LL_MAX_LOG MAX_LITERAL_LENGTH_CODE LL_DEFAULT_ACC_LOG LITERALS_LENGTH_DEFAULT_DISTRIBUTION D_ll None /\ tab_ready D_ll None (codes 36)) /\
  (forall prev rle, t_max_symbol prev = MAX_OFFSET_CODE ->
     mtable MPredef prev rle OF_MAX_LOG MAX_OFFSET_CODE OF_DEFAULT_ACC_LOG OFFSET_DEFAULT_DISTRIBUTION D_of None /\ tab_ready D_of None (codes 29)) /\
  (forall prev rle, t_max_symbol prev = MAX_MATCH_LENGTH_CODE ->
     mtable MPredef prev rle ML_MAX_LOG MAX_MATCH_LENGTH_CODE ML_DEFAULT_ACC_LOG MATCH_LENGTH_DEFAULT_DISTRIBUTION D_ml None /\ tab_ready D_ml None (codes 53)) /\
  (forall c prev prev_rle max_log max_code def_log def_dist, c <= max_code ->
     mtable (MRle c) prev prev_rle max_log max_code def_log def_dist prev (Some c) /\ tab_ready prev (Some c) [c]) /\
  (forall prev prev_rle max_log max_code def_log def_dist, mtable MRepeat prev prev_rle max_log max_code def_log def_dist prev prev_rle).
Proof. split; [exact predef_mode_ll|]. split; [exact predef_mode_of|]. split; [exact predef_mode_ml|]. split; [exact rle_mode|exact repeat_mode]. Qed.

(** non-vacuity: literal lengths in RLE mode, offsets repeated, match lengths predefined *)
Example C12_modes_example :
  match decode_sequences 2 (Some (modes_byte (MRle 3) MRepeat MPredef)) (3 :: ex_stream) (sc D_ll D_ml D_of) with
  | ROk (s', vals) => vals = [{| sq_ll := 3; sq_ml := 5; sq_of := 49 |}; {| sq_ll := 3; sq_ml := 5; sq_of := 49 |}] /\ fs_ll_rle s' = Some 3
  | _ => False
  end.
Proof. exact modes_example. Qed.

(** where every entry of a built table comes from (a "less than one" slot with the full width, or the k-th state of a
    symbol of probability p), and its consequence: a distribution in which no probability exceeds half the table size
    gives a table in which every state carries at least one bit *)
Theorem C12_general_table_theorem_with_provenance : forall al probs ms,
  5 <= al <= 9 -> Forall (fun p => -1 <= p) probs -> weight probs = 2 ^ al ->
  (length probs <= 256)%nat -> Z.of_nat (length probs) <= ms + 1 ->
  exists D, fse_build_from_probabilities (fse_new ms) al probs = ROk D /\
    (forall e, In e (t_decode D) -> 0 <= e_bits e <= al /\ 0 <= e_base e /\ e_base e + 2 ^ e_bits e <= 2 ^ al) /\
    Z.of_nat (length (t_decode D)) = 2 ^ al /\
    (forall i, (i < length probs)%nat -> nth i probs 0 <> 0 -> covers D (Z.of_nat i)) /\
    (forall e, In e (t_decode D) -> e_bits e = al \/
       exists p k, In p probs /\ 1 <= p /\ 0 <= k < p /\ e_bits e = snd (calc_baseline_and_numbits (2 ^ al) p k)).
Proof. exact general_table_full. Qed.

Theorem C12_half_bounded_distribution_carries_bits : forall al probs ms,
  5 <= al <= 9 -> Forall (fun p => -1 <= p <= 2 ^ (al - 1)) probs -> weight probs = 2 ^ al ->
  (length probs <= 256)%nat -> Z.of_nat (length probs) <= ms + 1 ->
  exists D, fse_build_from_probabilities (fse_new ms) al probs = ROk D /\ entries_carry_a_bit D /\ table_wf D /\
    (forall i, (i < length probs)%nat -> nth i probs 0 <> 0 -> covers D (Z.of_nat i)).
Proof. exact half_bounded_distribution_carries_bits. Qed.

(** with the avoid-zero-bits option the normaliser never leaves a probability above half the table size, for every
    histogram -- so every state of the table built from its output carries a bit *)
Theorem C12_normaliser_with_avoid_is_half_bounded : forall counts max_log al probs,
  5 <= max_log -> Forall (fun c => 0 <= c) counts -> 0 < last counts 0 -> (2 <= length counts)%nat ->
  norm_counts counts max_log true = ROk (al, probs) ->
  Forall (fun p => p <= 2 ^ (al - 1)) probs.
Proof. exact norm_counts_half_bounded. Qed.

Print Assumptions C12_normaliser_with_avoid_is_half_bounded.
Print Assumptions C12_general_table_theorem_with_provenance.
Print Assumptions C12_half_bounded_distribution_carries_bits.
Print Assumptions C12_sequences_section_with_any_table_modes.
Print Assumptions C12_every_mode_is_available.
Print Assumptions C12_table_description_roundtrip.
(** THE GENERAL TABLE THEOREM: for every accuracy log 5..9 and EVERY normalised distribution -- probabilities >= -1, a
    "less than one" probability (-1) counting 1, total 2^accuracy_log -- over an alphabet of at most 256 symbols, the
    decoder's table construction succeeds (the "less than one" symbols at the top, the others spread along the orbit of
    the spreading step over the positions below them, baselines and bit counts in state order); the table has
    2^accuracy_log entries; every entry's state range lies inside the table; and every symbol with a non-zero probability
    has states whose ranges cover the whole state space *)
Theorem C12_general_table_theorem : forall al probs ms,
  5 <= al <= 9 -> Forall (fun p => -1 <= p) probs -> weight probs = 2 ^ al ->
  (length probs <= 256)%nat -> Z.of_nat (length probs) <= ms + 1 ->
  exists D, fse_build_from_probabilities (fse_new ms) al probs = ROk D /\
    (forall e, In e (t_decode D) -> 0 <= e_bits e <= al /\ 0 <= e_base e /\ e_base e + 2 ^ e_bits e <= 2 ^ al) /\
    Z.of_nat (length (t_decode D)) = 2 ^ al /\
    (forall i, (i < length probs)%nat -> nth i probs 0 <> 0 -> covers D (Z.of_nat i)).
Proof. exact general_table. Qed.

Print Assumptions C12_general_table_theorem.
Print Assumptions C12_normaliser_output_is_normalised.
Print Assumptions C12_normaliser_never_panics.
Print Assumptions C12_every_built_table_is_well_formed.
Print Assumptions C12_built_tables_cover_their_symbols.
Print Assumptions C12_sequence_section_roundtrip.
Print Assumptions C12_normalised_is_decidable.
Print Assumptions C12_predefined_sequences_roundtrip.
Print Assumptions C12_backward_stream_inverse.
Print Assumptions C12_sequences_stream_roundtrip.
Print Assumptions C12_ll_predefined_eq_ref.
Print Assumptions C12_ml_predefined_eq_ref.
Print Assumptions C12_of_predefined_eq_ref.
Print Assumptions C12_distributions_eq_ref.
Print Assumptions C12_state_ranges_partition.
Print Assumptions C12_state_range_in_table.
Print Assumptions C12_spreading_step_is_a_permutation.
