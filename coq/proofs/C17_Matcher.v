(** C17: the built-in match finder.  For every state satisfying the invariant [MInv] (base offsets are the
    distances between entry starts, stored indices lie before the current position / inside their entry, the window
    size is the sum of the entry sizes and at most the maximum) every operation keeps the invariant and never
    panics; the sequences reported for a block, executed with the decoder's own LZ77 copy [lz_copy] on the retained
    data, reproduce exactly the block; every distance is at most the advertised window and the retained data.
    Nothing here depends on the hash function ([hkey] is never unfolded). *)
Require Import Zrs.lib.RsPrelude Zrs.lib.ListFacts Zrs.model.BlockDec Zrs.model.Matcher Zrs.proofs.C09_Lz.
Open Scope nat_scope.

Lemma common_prefix_spec a : forall b, common_prefix a b <= length a /\ common_prefix a b <= length b /\
  firstn (common_prefix a b) a = firstn (common_prefix a b) b.
Proof.
  induction a as [|x a IH]; intros [|y b]; cbn [common_prefix length firstn]; try (repeat split; lia).
  destruct (Z.eqb_spec x y) as [->|Hne]; cbn [firstn]; [|repeat split; lia].
  destruct (IH b) as (A & B & C). repeat split; try lia. f_equal. exact C.
Qed.

Lemma lz_copy_fwd ml off (h : list Z) : ml <= off -> off <= length h ->
  rev (lz_copy ml off (rev h)) = h ++ firstn ml (skipn (length h - off) h).
Proof.
  intros H1 H2. rewrite lz_copy_short by (rewrite ?rev_length; lia).
  rewrite rev_app_distr, rev_involutive. f_equal.
  rewrite skipn_rev, firstn_rev, rev_involutive, firstn_length.
  replace (Nat.min (length h - (off - ml)) (length h) - ml) with (length h - off) by lia.
  rewrite firstn_skipn_comm. f_equal. f_equal. lia.
Qed.

(** sequences executed on a history (oldest byte first) with the decoder's copy *)
Definition apply_seq (h : list Z) (s : mseq) : option (list Z) :=
  match s with
  | MLit l => Some (h ++ l)
  | MTriple l off ml =>
      let h1 := h ++ l in
      if (1 <=? off) && (off <=? length h1) then Some (rev (lz_copy ml off (rev h1))) else None
  end.
Fixpoint apply_seqs (h : list Z) (l : list mseq) : option (list Z) :=
  match l with
  | [] => Some h
  | s :: t => match apply_seq h s with Some h' => apply_seqs h' t | None => None end
  end.

Lemma apply_seqs_app h l1 l2 : apply_seqs h (l1 ++ l2) = match apply_seqs h l1 with Some h' => apply_seqs h' l2 | None => None end.
Proof. revert h. induction l1 as [|s t IH]; intros h; cbn [apply_seqs app]; [reflexivity|]. destruct (apply_seq h s); [apply IH|reflexivity]. Qed.

(** that the distance stays within the data before the match is checked by [apply_seq] *)
Definition seq_bounds (maxw : nat) (s : mseq) : Prop :=
  match s with MLit _ => True | MTriple _ off ml => 1 <= off /\ off <= maxw /\ MIN_MATCH <= ml end.

Lemma seq_bounds_mono a b s : a <= b -> seq_bounds a s -> seq_bounds b s.
Proof. intros L. destruct s as [|l o m]; cbn [seq_bounds]; [trivial|]. intros (A & B & C). repeat split; lia. Qed.

Fixpoint total_len (l : list wentry) : nat := match l with [] => 0 | e :: t => length (we_data e) + total_len t end.
Definition older_fwd (older : list wentry) : list Z := concat (rev (map we_data older)).

Lemma older_fwd_app a b : older_fwd (a ++ b) = older_fwd b ++ older_fwd a.
Proof. unfold older_fwd. rewrite map_app, rev_app_distr, concat_app. reflexivity. Qed.
Lemma older_fwd_cons e l : older_fwd (e :: l) = older_fwd l ++ we_data e.
Proof. unfold older_fwd. cbn [map rev]. rewrite concat_app. cbn [concat]. rewrite app_nil_r. reflexivity. Qed.
Lemma older_fwd_data a b : map we_data a = map we_data b -> older_fwd a = older_fwd b.
Proof. unfold older_fwd. intros ->. reflexivity. Qed.
Lemma older_fwd_length l : length (older_fwd l) = total_len l.
Proof. induction l as [|e t IH]; [reflexivity|]. rewrite older_fwd_cons, app_length, IH. cbn [total_len]. lia. Qed.

Lemma total_len_app a b : total_len (a ++ b) = total_len a + total_len b.
Proof. rewrite <- !older_fwd_length, older_fwd_app, app_length. lia. Qed.
Lemma total_len_rev a : total_len (rev a) = total_len a.
Proof. induction a as [|x a IH]; cbn [total_len rev]; [reflexivity|]. rewrite total_len_app. cbn [total_len]. lia. Qed.
Lemma total_len_data a b : map we_data a = map we_data b -> total_len a = total_len b.
Proof. intros H. rewrite <- !older_fwd_length, (older_fwd_data _ _ H). reflexivity. Qed.

Lemma hist_extend (O d : list Z) a n : (O ++ firstn a d) ++ firstn n (skipn a d) = O ++ firstn (a + n) d.
Proof. rewrite firstn_split, app_assoc. reflexivity. Qed.

(** base offsets: each entry's base is the previous (newer) entry's base plus its own length *)
Fixpoint bases_ok (base : nat) (older : list wentry) : Prop :=
  match older with
  | [] => True
  | e :: t => we_base e = base + length (we_data e) /\ bases_ok (we_base e) t
  end.

Lemma bases_ok_split pre : forall b e post, bases_ok b (pre ++ e :: post) -> we_base e = b + total_len pre + length (we_data e).
Proof.
  induction pre as [|x pre IH]; intros b e post H; cbn [app bases_ok total_len] in *.
  - destruct H as [H _]. lia.
  - destruct H as [Hx H]. rewrite (IH _ _ _ H), Hx. lia.
Qed.
Lemma bases_ok_prefix pre : forall b post, bases_ok b (pre ++ post) -> bases_ok b pre.
Proof.
  induction pre as [|x pre IH]; intros b post H; cbn [app bases_ok] in *; [exact I|].
  destruct H as [Hx H]. split; [exact Hx|]. eapply IH. exact H.
Qed.
Lemma bases_ok_shift n l : forall b, bases_ok b l -> bases_ok (b + n) (map (add_base n) l).
Proof.
  induction l as [|x l IH]; intros b H; cbn [map bases_ok] in *; [exact I|].
  destruct H as [Hx H]. cbn [add_base we_base we_data]. split; [lia|]. apply IH. exact H.
Qed.

Definition store_lt (bound : nat) (s : sstore) : Prop := forall k i, ss_get s k = Some i -> i < bound.
Definition store_le (bound : nat) (s : sstore) : Prop := forall k i, ss_get s k = Some i -> i <= bound.
Definition store_empty (s : sstore) : Prop := forall k, ss_get s k = None.

Lemma store_lt_le b s : store_lt b s -> store_le b s.
Proof. intros H k i E. specialize (H k i E). lia. Qed.
Lemma store_lt_mono b b' s : b <= b' -> store_lt b s -> store_lt b' s.
Proof. intros L H k i E. specialize (H k i E). lia. Qed.
Lemma store_empty_lt b s : store_empty s -> store_lt b s.
Proof. intros H k i E. rewrite H in E. discriminate. Qed.
Lemma ss_new_empty c : store_empty (ss_new c).
Proof. intros k. reflexivity. Qed.

Lemma insert_lt b s key i : store_lt b s -> i < b -> store_lt b (ss_insert_if_absent s key i).
Proof.
  intros H Hi. unfold ss_insert_if_absent. destruct (ss_get s (ss_key s key)) eqn:E; [exact H|].
  intros k j. cbn [ss_get]. destruct (Z.eqb k (ss_key s key)); [intros [= <-]; exact Hi|apply H].
Qed.

Lemma add_suf_lt cnt : forall slice pos s b, store_lt b s -> pos + cnt <= b -> store_lt b (add_suf cnt slice pos s).
Proof.
  induction cnt as [|c IH]; intros slice pos s b H Hb; cbn [add_suf]; [exact H|].
  destruct slice as [|x t]; [exact H|]. apply IH; [apply insert_lt; [exact H|lia]|lia].
Qed.

Lemma add_suffixes_till_ok e sidx idx : sidx <= idx -> idx <= length (we_data e) -> store_lt sidx (we_suf e) ->
  exists e', add_suffixes_till e sidx idx = ROk e' /\ we_data e' = we_data e /\ we_base e' = we_base e /\
             store_lt idx (we_suf e').
Proof.
  intros H1 H2 Hs. apply (store_lt_mono _ _ _ H1) in Hs. unfold add_suffixes_till.
  destruct (Nat.ltb_spec (length (we_data e)) MIN_MATCH) as [_|_]; [exists e; repeat split; exact Hs|].
  rewrite (proj2 (Nat.ltb_ge idx sidx)), (proj2 (Nat.ltb_ge (length (we_data e)) idx)) by lia.
  cbn [orb]. eexists. split; [reflexivity|]. cbn [we_data we_base we_suf]. repeat split.
  apply add_suf_lt; [exact Hs|]. rewrite firstn_length, skipn_length. lia.
Qed.

Definition MInv (st : mg) : Prop :=
  mg_wsize st = total_len (mg_win st) /\ mg_wsize st <= mg_max st /\
  match mg_win st with
  | [] => True
  | e0 :: older =>
      we_base e0 = 0 /\ bases_ok 0 older /\ store_lt (mg_sidx st) (we_suf e0) /\
      Forall (fun e => store_le (length (we_data e)) (we_suf e)) older /\
      mg_last st <= mg_sidx st /\ mg_sidx st <= length (we_data e0)
  end.

Lemma MInv_cons st e0 older : MInv st -> mg_win st = e0 :: older ->
  mg_wsize st = total_len (e0 :: older) /\ mg_wsize st <= mg_max st /\
  we_base e0 = 0 /\ bases_ok 0 older /\ store_lt (mg_sidx st) (we_suf e0) /\
  Forall (fun e => store_le (length (we_data e)) (we_suf e)) older /\
  mg_last st <= mg_sidx st /\ mg_sidx st <= length (we_data e0).
Proof. unfold MInv. intros H E. rewrite E in H. exact H. Qed.

Lemma MInv_bounds st e0 older : MInv st -> mg_win st = e0 :: older -> mg_last st <= mg_sidx st <= length (we_data e0).
Proof. intros H E. apply (MInv_cons _ _ _ H E). Qed.

Lemma MInv_set_cur st e0 older e0' sidx last :
  MInv st -> mg_win st = e0 :: older -> we_data e0' = we_data e0 -> we_base e0' = we_base e0 ->
  store_lt sidx (we_suf e0') -> last <= sidx -> sidx <= length (we_data e0) ->
  MInv (set_cur st e0' older sidx last).
Proof.
  intros HI Ew Hd Hb Hs H1 H2. destruct (MInv_cons _ _ _ HI Ew) as (Hw & Hm & B0 & Bs & _ & Ss & _).
  unfold MInv. cbn [set_cur mg_wsize mg_win mg_max mg_sidx mg_last total_len] in *. rewrite Hd, Hb.
  repeat split; assumption.
Qed.

(** a candidate (offset, length) at position [sidx] of the current entry: [H] is everything retained before the
    position, [cur] the rest of the block *)
Definition good_match (H cur : list Z) (wsize : nat) (c : nat * nat) : Prop :=
  let '(off, ml) := c in
  MIN_MATCH <= ml /\ ml <= off /\ off <= length H /\ off <= wsize /\ ml <= length cur /\
  firstn ml (skipn (length H - off) H) = firstn ml cur.
Definition good_opt (H cur : list Z) (wsize : nat) (c : option (nat * nat)) : Prop :=
  match c with None => True | Some x => good_match H cur wsize x end.

(** the source of a match is a stretch [D] of the history, searched from its index [mi] on; [off] is the distance
    from that index to the end of the history *)
Lemma good_match_intro A D B cur w mi off :
  mi <= length D -> off + mi = length B + length D -> off <= w -> MIN_MATCH <= common_prefix (skipn mi D) cur ->
  good_match (A ++ D ++ B) cur w (off, common_prefix (skipn mi D) cur).
Proof.
  intros Hmi Hoff Hw Hmin. destruct (common_prefix_spec (skipn mi D) cur) as (L1 & L2 & E).
  rewrite skipn_length in L1. set (ml := common_prefix _ _) in *.
  unfold good_match. rewrite !app_length. repeat split; try lia.
  replace (length A + (length D + length B) - off) with (length A + mi) by lia.
  rewrite skipn_app_2, (proj2 (split_app_le mi D B Hmi)), (proj1 (split_app_le ml (skipn mi D) B ltac:(rewrite skipn_length; exact L1))).
  exact E.
Qed.

Lemma cand_better_good H cur w c off ml : good_opt H cur w c -> good_match H cur w (off, ml) ->
  good_opt H cur w (cand_better c off ml).
Proof.
  intros Hc Hn. unfold cand_better. destruct c as [[o m]|]; [|exact Hn].
  destruct ((m <? ml) || ((ml =? m) && (off <? o))); [exact Hn|exact Hc].
Qed.

(** a window entry as a source: [D] is the part of its data a match may start in (for the current entry the part
    before the position), [A] and [B] what the history holds before and after it *)
Lemma entry_cand_good (is_last : bool) e sidx cur A B w :
  let D := if is_last then firstn sidx (we_data e) else we_data e in
  store_le (length D) (we_suf e) -> we_base e + sidx = length B + length D -> length B + length D <= w ->
  exists r, entry_cand is_last e sidx cur = ROk r /\ good_opt (A ++ D ++ B) cur w r.
Proof.
  intros D Hs Hb Hw. unfold entry_cand.
  destruct (ss_lookup (we_suf e) (firstn MIN_MATCH cur)) as [mi|] eqn:E; [|exists None; split; [reflexivity|exact I]].
  apply Hs in E.
  replace (is_last && (sidx <? mi)) with false
    by (subst D; destruct is_last; [rewrite firstn_length in E; symmetry; apply Nat.ltb_ge; lia|reflexivity]).
  rewrite (proj2 (Nat.ltb_ge (length (we_data e)) mi)) by (subst D; destruct is_last; [rewrite firstn_length in E|]; lia).
  replace (if is_last then firstn (sidx - mi) (skipn mi (we_data e)) else skipn mi (we_data e)) with (skipn mi D)
    by (subst D; destruct is_last; [apply skipn_firstn_comm|reflexivity]).
  destruct (Nat.leb_spec MIN_MATCH (common_prefix (skipn mi D) cur)) as [Hmin|_]; [|exists None; split; [reflexivity|exact I]].
  eexists. split; [reflexivity|]. apply good_match_intro; [exact E|lia|lia|exact Hmin].
Qed.

Lemma find_cand_good H cur w sidx es : forall c,
  (forall b e, In (b, e) es -> exists r, entry_cand b e sidx cur = ROk r /\ good_opt H cur w r) ->
  good_opt H cur w c ->
  exists c', find_cand es sidx cur c = ROk c' /\ good_opt H cur w c'.
Proof.
  induction es as [|[b e] t IH]; intros c Hes Hc; cbn [find_cand].
  - eexists. split; [reflexivity|exact Hc].
  - destruct (Hes b e (or_introl eq_refl)) as (r & -> & Gr).
    assert (Ht : forall b0 e1, In (b0, e1) t -> exists r0, entry_cand b0 e1 sidx cur = ROk r0 /\ good_opt H cur w r0)
      by (intros; apply Hes; right; assumption).
    destruct r as [[o m]|]; apply IH; try assumption. apply cand_better_good; assumption.
Qed.

Lemma tagged_in e0 older b e : In (b, e) (tagged (e0 :: older)) -> (b = true /\ e = e0) \/ (b = false /\ In e older).
Proof.
  unfold tagged. rewrite in_app_iff, <- in_rev, in_map_iff. intros [(x & [= <- <-] & Hx)|[[= <- <-]|[]]].
  - right. split; [reflexivity|exact Hx].
  - left. split; reflexivity.
Qed.

Lemma find_cand_window st e0 older cur :
  MInv st -> mg_win st = e0 :: older ->
  exists c, find_cand (tagged (e0 :: older)) (mg_sidx st) cur None = ROk c /\
            good_opt (older_fwd older ++ firstn (mg_sidx st) (we_data e0)) cur (mg_wsize st) c.
Proof.
  intros HI Ew. destruct (MInv_cons _ _ _ HI Ew) as (-> & _ & B0 & Bs & S0 & Ss & _ & L2).
  assert (Ls : length (firstn (mg_sidx st) (we_data e0)) = mg_sidx st) by (rewrite firstn_length; lia).
  cbn [total_len]. apply find_cand_good; [|exact I].
  intros b e Hin. destruct (tagged_in _ _ _ _ Hin) as [[-> ->]|[-> Hin']].
  - rewrite <- (app_nil_r (firstn _ _)).
    apply (entry_cand_good true); rewrite Ls; cbn [length]; [apply store_lt_le; exact S0|lia|lia].
  - destruct (in_split _ _ Hin') as (pre & post & ->).
    rewrite older_fwd_app, older_fwd_cons, <- !app_assoc.
    apply (entry_cand_good false); rewrite ?app_length, ?older_fwd_length, ?Ls.
    + rewrite Forall_forall in Ss. apply Ss. exact Hin'.
    + rewrite (bases_ok_split _ _ _ _ Bs). lia.
    + rewrite total_len_app. cbn [total_len]. lia.
Qed.

Definition win_data (st : mg) : list (list Z) := map we_data (mg_win st).
Definition win_bases (st : mg) : list nat := map we_base (mg_win st).

Definition same_frame (st st' : mg) : Prop :=
  win_data st' = win_data st /\ win_bases st' = win_bases st /\ mg_max st' = mg_max st /\ mg_wsize st' = mg_wsize st /\
  tl (mg_win st') = tl (mg_win st).

Lemma same_frame_refl st : same_frame st st.
Proof. repeat split. Qed.
Lemma same_frame_trans a b c : same_frame a b -> same_frame b c -> same_frame a c.
Proof. intros (A1 & A2 & A3 & A4 & A5) (B1 & B2 & B3 & B4 & B5). repeat split; congruence. Qed.

Lemma same_frame_set_cur st e0 older e0' sidx last :
  mg_win st = e0 :: older -> we_data e0' = we_data e0 -> we_base e0' = we_base e0 ->
  same_frame st (set_cur st e0' older sidx last).
Proof.
  intros E Hd Hb. unfold same_frame, win_data, win_bases. cbn [set_cur mg_win mg_max mg_wsize].
  rewrite E. cbn [map tl]. rewrite Hd, Hb. repeat split.
Qed.

Lemma same_frame_head st st' e0 older : same_frame st st' -> mg_win st = e0 :: older ->
  exists e0', mg_win st' = e0' :: older /\ we_data e0' = we_data e0.
Proof.
  unfold same_frame, win_data. intros (D & _ & _ & _ & T) E. rewrite E in D, T.
  destruct (mg_win st') as [|x t]; [discriminate|]. cbn [map tl] in *. exists x. split; congruence.
Qed.

(** what one [next_sequence] call delivers, in terms of the history: [older], then the first [mg_last] bytes of the
    block [we_data e0] *)
Definition seq_result (st : mg) (e0 : wentry) (older : list wentry) (r : option mseq) (st' : mg) : Prop :=
  MInv st' /\ same_frame st st' /\ mg_last st' = mg_sidx st' /\
  match r with
  | None => mg_last st = length (we_data e0) /\ st' = st
  | Some sq =>
      apply_seq (older_fwd older ++ firstn (mg_last st) (we_data e0)) sq
        = Some (older_fwd older ++ firstn (mg_last st') (we_data e0)) /\
      mg_last st < mg_last st' /\ seq_bounds (mg_wsize st) sq
  end.

(** every reporting branch of [next_sequence] ends in such a [set_cur] *)
Lemma report_result st e0 older e0' n sq :
  MInv st -> mg_win st = e0 :: older -> we_data e0' = we_data e0 -> we_base e0' = we_base e0 ->
  store_lt n (we_suf e0') -> mg_last st < n -> n <= length (we_data e0) ->
  apply_seq (older_fwd older ++ firstn (mg_last st) (we_data e0)) sq = Some (older_fwd older ++ firstn n (we_data e0)) ->
  seq_bounds (mg_wsize st) sq ->
  seq_result st e0 older (Some sq) (set_cur st e0' older n n).
Proof.
  intros HI Ew Hd Hb Hs H1 H2 Ap Bd. split; [apply (MInv_set_cur st e0 older); auto|].
  split; [apply (same_frame_set_cur st e0 older); assumption|]. split; [reflexivity|].
  cbn [set_cur mg_last]. auto.
Qed.

Lemma apply_lit (O d : list Z) last n : length d <= n ->
  apply_seq (O ++ firstn last d) (MLit (skipn last d)) = Some (O ++ firstn n d).
Proof. intros H. cbn [apply_seq]. rewrite <- app_assoc, firstn_skipn, firstn_all2 by exact H. reflexivity. Qed.

Lemma apply_match (O d : list Z) last sidx w off ml : last <= sidx ->
  good_match (O ++ firstn sidx d) (skipn sidx d) w (off, ml) ->
  apply_seq (O ++ firstn last d) (MTriple (firstn (sidx - last) (skipn last d)) off ml) = Some (O ++ firstn (sidx + ml) d) /\
  seq_bounds w (MTriple (firstn (sidx - last) (skipn last d)) off ml).
Proof.
  intros Hl (G1 & G2 & G3 & G4 & G5 & G6). unfold MIN_MATCH in G1. cbn [apply_seq seq_bounds].
  rewrite hist_extend. replace (last + (sidx - last)) with sidx by lia.
  rewrite (proj2 (Nat.leb_le 1 off)), (proj2 (Nat.leb_le off _)) by lia. cbn [andb].
  rewrite lz_copy_fwd, G6, hist_extend by assumption. unfold MIN_MATCH. split; [reflexivity|lia].
Qed.

Lemma next_seq_spec fuel : forall st e0 older,
  MInv st -> mg_win st = e0 :: older -> length (we_data e0) - mg_sidx st < fuel ->
  exists r st', next_seq fuel st = ROk (r, st') /\ seq_result st e0 older r st'.
Proof.
  induction fuel as [|f IH]; intros st e0 older HI Ew Hf; [lia|].
  destruct (MInv_cons _ _ _ HI Ew) as (_ & _ & _ & _ & S0 & _ & L1 & L2).
  cbn [next_seq]. rewrite Ew.
  destruct (Nat.leb_spec (length (we_data e0)) (mg_sidx st)) as [Hend|Hmore].
  - destruct (Nat.eqb_spec (mg_last st) (mg_sidx st)) as [Heq|Hne]; cbn [negb].
    + exists None, st. split; [reflexivity|]. split; [exact HI|]. split; [apply same_frame_refl|].
      split; [exact Heq|]. split; [lia|reflexivity].
    + rewrite (proj2 (Nat.ltb_ge (length (we_data e0)) (mg_last st))) by lia.
      eexists _, _. split; [reflexivity|].
      apply (report_result st e0 older e0 _ _ HI Ew eq_refl eq_refl); [exact S0|lia|lia|apply apply_lit; exact Hend|exact I].
  - rewrite skipn_length.
    destruct (Nat.ltb_spec (length (we_data e0) - mg_sidx st) MIN_MATCH) as [Hshort|Hlong].
    + (* fewer than 5 bytes left *)
      rewrite (proj2 (Nat.ltb_ge (length (we_data e0)) (mg_last st))) by lia.
      eexists _, _. split; [reflexivity|].
      apply (report_result st e0 older e0 _ _ HI Ew eq_refl eq_refl); [|lia|lia|apply apply_lit; lia|exact I].
      eapply store_lt_mono; [|exact S0]. lia.
    + destruct (find_cand_window st e0 older (skipn (mg_sidx st) (we_data e0)) HI Ew) as ([[off ml]|] & -> & Gc).
      * destruct (apply_match _ _ (mg_last st) _ _ _ _ L1 Gc) as [Ap Bd].
        assert (G5 : ml <= length (skipn (mg_sidx st) (we_data e0))) by apply Gc. rewrite skipn_length in G5. clear Gc.
        destruct (add_suffixes_till_ok e0 (mg_sidx st) (mg_sidx st + ml)) as (e0' & -> & Da & Ba & Sa); [lia|lia|exact S0|].
        cbn [rbind]. rewrite (proj2 (Nat.ltb_ge (mg_sidx st) (mg_last st))) by lia.
        eexists _, _. split; [reflexivity|]. pose proof Bd as (_ & _ & Hml). unfold MIN_MATCH in Hml.
        apply (report_result st e0 older e0' _ _ HI Ew Da Ba Sa); [lia|lia|exact Ap|exact Bd].
      * (* no match at this position: register it and go on *)
        set (e0' := {| we_data := we_data e0; we_suf := _; we_base := we_base e0 |}).
        assert (HI1 : MInv (set_cur st e0' older (S (mg_sidx st)) (mg_last st))).
        { apply (MInv_set_cur st e0 older); try assumption; try reflexivity; try lia.
          apply insert_lt; [eapply store_lt_mono; [|exact S0]; lia|lia]. }
        destruct (IH _ e0' older HI1 eq_refl) as (r & st' & -> & HI' & SF & Hls & SR); [cbn [set_cur mg_sidx e0' we_data]; lia|].
        exists r, st'. split; [reflexivity|]. split; [exact HI'|].
        split; [eapply same_frame_trans; [|exact SF]; apply (same_frame_set_cur st e0 older); [exact Ew|reflexivity..]|].
        split; [exact Hls|]. cbn [set_cur mg_last mg_wsize e0' we_data] in SR.
        destruct r as [sq|]; [exact SR|]. unfold MIN_MATCH in Hlong. lia.
Qed.

Lemma start_loop_spec fuel : forall st e0 older acc,
  MInv st -> mg_win st = e0 :: older -> length (we_data e0) - mg_last st < fuel ->
  exists seqs st', start_loop fuel st acc = ROk (rev acc ++ seqs, st') /\ MInv st' /\ same_frame st st' /\
    apply_seqs (older_fwd older ++ firstn (mg_last st) (we_data e0)) seqs = Some (older_fwd older ++ we_data e0) /\
    Forall (seq_bounds (mg_wsize st)) seqs /\
    mg_sidx st' = length (we_data e0) /\ mg_last st' = length (we_data e0).
Proof.
  induction fuel as [|f IH]; intros st e0 older acc HI Ew Hf; [lia|].
  cbn [start_loop]. rewrite Ew.
  destruct (next_seq_spec (S (length (we_data e0) - mg_sidx st)) st e0 older HI Ew) as (r & st1 & -> & HI1 & SF1 & Hls & SR); [lia|].
  cbn [rbind]. destruct r as [sq|].
  - destruct SR as (Ap & Prog & Bd).
    destruct (same_frame_head _ _ _ _ SF1 Ew) as (e1 & Ew1 & Hd1).
    pose proof (MInv_bounds _ _ _ HI1 Ew1) as B1. rewrite Hd1 in B1.
    destruct (IH st1 e1 older (sq :: acc) HI1 Ew1) as (seqs & st' & -> & HI' & SF' & Aps & Bds & F1 & F2); [rewrite Hd1; lia|].
    rewrite Hd1 in *. exists (sq :: seqs), st'. cbn [rev apply_seqs]. rewrite <- app_assoc, Ap.
    split; [reflexivity|]. split; [exact HI'|]. split; [eapply same_frame_trans; eassumption|]. split; [exact Aps|].
    split; [|split; assumption]. constructor; [exact Bd|].
    destruct SF1 as (_ & _ & _ & W1 & _). rewrite <- W1. exact Bds.
  - destruct SR as (Hlast & ->). pose proof (MInv_bounds _ _ _ HI Ew) as B.
    exists [], st. rewrite app_nil_r, rev'_rev, Hlast, firstn_all. cbn [apply_seqs].
    split; [reflexivity|]. split; [exact HI|]. split; [apply same_frame_refl|]. split; [reflexivity|].
    split; [constructor|lia].
Qed.

Theorem start_matching_spec st e0 older :
  MInv st -> mg_win st = e0 :: older -> mg_last st = mg_sidx st ->
  exists seqs st', start_matching st = ROk (seqs, st') /\ MInv st' /\ same_frame st st' /\
    apply_seqs (older_fwd older ++ firstn (mg_last st) (we_data e0)) seqs = Some (older_fwd older ++ we_data e0) /\
    Forall (seq_bounds (mg_wsize st)) seqs /\
    mg_sidx st' = length (we_data e0) /\ mg_last st' = length (we_data e0).
Proof.
  intros HI Ew _. unfold start_matching. rewrite Ew.
  apply (start_loop_spec _ st e0 older [] HI Ew). lia.
Qed.

Theorem skip_matching_spec st e0 older :
  MInv st -> mg_win st = e0 :: older ->
  exists st', skip_matching st = ROk st' /\ MInv st' /\ same_frame st st' /\
              mg_sidx st' = length (we_data e0) /\ mg_last st' = length (we_data e0).
Proof.
  intros HI Ew. destruct (MInv_cons _ _ _ HI Ew) as (_ & _ & _ & _ & S0 & _ & _ & L2).
  unfold skip_matching. rewrite Ew.
  destruct (add_suffixes_till_ok e0 (mg_sidx st) (length (we_data e0)) L2 (le_n _) S0) as (e0' & -> & Da & Ba & Sa).
  cbn [rbind]. eexists. split; [reflexivity|].
  split; [apply (MInv_set_cur st e0 older); auto|]. split; [apply (same_frame_set_cur st e0 older); assumption|].
  split; reflexivity.
Qed.

Lemma evict_spec l : forall wsize amount max ev, wsize = total_len l -> amount <= max ->
  exists dropped kept, evict l wsize amount max ev = ROk (kept, total_len kept, ev ++ dropped) /\
                       l = dropped ++ kept /\ total_len kept + amount <= max.
Proof.
  induction l as [|o t IH]; intros wsize amount max ev Hw Ha; cbn [evict].
  - cbn [total_len] in Hw. subst wsize. rewrite (proj2 (Nat.ltb_ge max (0 + amount))) by lia.
    exists [], []. rewrite app_nil_r. repeat split. cbn; lia.
  - destruct (Nat.ltb_spec max (wsize + amount)) as [Hover|Hfit].
    + cbn [total_len] in Hw. rewrite (proj2 (Nat.ltb_ge wsize (length (we_data o)))) by lia.
      destruct (IH (wsize - length (we_data o)) amount max (ev ++ [o])) as (dr & kept & E & Hl & Hk); [lia|exact Ha|].
      exists (o :: dr), kept. rewrite E, <- app_assoc. cbn [app]. repeat split; [rewrite Hl; reflexivity|exact Hk].
    + exists [], (o :: t). rewrite app_nil_r, <- Hw. repeat split. lia.
Qed.

Definition ready (st : mg) : Prop :=
  match mg_win st with [] => True | e0 :: _ => mg_sidx st = length (we_data e0) end.

(** the entries of a finished window that survive eviction, with their bases moved up by the size of the newest
    of them as [add_data] does, are what the invariant asks of the entries behind a new current entry *)
Lemma shifted_window_ok st kept dropped : MInv st -> ready st -> mg_win st = kept ++ dropped ->
  let older := match kept with [] => [] | e0 :: _ => map (add_base (length (we_data e0))) kept end in
  bases_ok 0 older /\ Forall (fun e => store_le (length (we_data e)) (we_suf e)) older /\
  map we_data older = map we_data kept.
Proof.
  intros HI Hr Ew. destruct kept as [|k0 kt]; [repeat split; constructor|].
  destruct (MInv_cons _ _ _ HI Ew) as (_ & _ & B0 & Bs & S0 & Ss & _).
  unfold ready in Hr. rewrite Ew in Hr. cbn [app] in Hr. rewrite Hr in S0.
  apply bases_ok_prefix in Bs. apply Forall_app in Ss. split; [|split].
  - cbn [map bases_ok add_base we_base we_data]. rewrite B0. split; [reflexivity|]. apply bases_ok_shift. exact Bs.
  - apply Forall_map. constructor; [apply store_lt_le; exact S0|apply Ss].
  - rewrite map_map. reflexivity.
Qed.

Theorem add_data_spec st data suf :
  MInv st -> ready st -> length data <= mg_max st -> store_empty suf ->
  exists st' evicted e1 older1 gone,
    add_data st data suf = ROk (st', evicted) /\ MInv st' /\ mg_max st' = mg_max st /\
    mg_win st' = e1 :: older1 /\ we_data e1 = data /\ older_fwd (mg_win st) = gone ++ older_fwd older1 /\
    mg_sidx st' = 0 /\ mg_last st' = 0.
Proof.
  intros HI Hr Hlen Hemp. unfold add_data.
  replace (match mg_win st with [] => true | e0 :: _ => mg_sidx st =? length (we_data e0) end) with true
    by (unfold ready in Hr; destruct (mg_win st); [reflexivity|]; symmetry; apply Nat.eqb_eq; exact Hr).
  cbn [negb]. rewrite (proj2 (Nat.ltb_ge (mg_max st) (length data))) by lia.
  destruct (evict_spec (rev (mg_win st)) (mg_wsize st) (length data) (mg_max st) []) as (dr & ko & -> & Hl & Hk);
    [rewrite total_len_rev; apply HI|exact Hlen|].
  cbn [rbind app].
  assert (Ew : mg_win st = rev ko ++ rev dr) by (rewrite <- rev_app_distr, <- Hl, rev_involutive; reflexivity).
  destruct (shifted_window_ok st (rev ko) (rev dr) HI Hr Ew) as (Bs & Ss & Ed).
  eexists _, dr, _, _, (older_fwd (rev dr)). split; [reflexivity|]. cbn [mg_max mg_win mg_sidx mg_last we_data].
  split; [|repeat split; rewrite Ew, older_fwd_app, (older_fwd_data _ _ Ed); reflexivity].
  unfold MInv. cbn [mg_wsize mg_win mg_max mg_sidx mg_last total_len we_data we_base we_suf].
  rewrite (total_len_data _ _ Ed), total_len_rev.
  repeat split; try assumption; try lia. apply store_empty_lt. exact Hemp.
Qed.

Theorem reset_spec st : MInv st -> MInv (fst (mg_reset st)) /\ mg_win (fst (mg_reset st)) = [] /\ mg_max (fst (mg_reset st)) = mg_max st.
Proof. intros (Hw & Hmax & _). unfold mg_reset, MInv. cbn. repeat split; lia. Qed.

(** the driver: any history of blocks (matched or skipped) and resets *)
Inductive mop := OpBlock (data : list Z) (skip : bool) | OpReset.

Definition mstep (d : mgd) (op : mop) : res (mgd * option (list mseq)) :=
  match op with
  | OpReset => ROk (mgd_reset d, None)
  | OpBlock data skip =>
      let* d1 := commit_space d data in
      if skip then (let* d2 := mgd_skip d1 in ROk (d2, None))
      else (let* (sq, d2) := mgd_start d1 in ROk (d2, Some sq))
  end.

(** everything the matcher still holds, oldest byte first *)
Definition retained (d : mgd) : list Z := older_fwd (mg_win (md_gen d)).
Definition DInv (d : mgd) : Prop := MInv (md_gen d) /\ ready (md_gen d).
Definition max_window (d : mgd) : nat := mg_max (md_gen d).
Definition op_fits (maxw : nat) (op : mop) : Prop := match op with OpBlock data _ => length data <= maxw | OpReset => True end.

(** what a step must deliver: [H] is the retained data before the block (a suffix of what was retained before:
    eviction only drops the oldest bytes), [H ++ data] fits the window, and the reported sequences rebuild the block
    from [H] with distances inside [H ++ block so far] (enforced by [apply_seq]) and inside the window *)
Definition step_good (d : mgd) (op : mop) (d' : mgd) (out : option (list mseq)) : Prop :=
  max_window d' = max_window d /\
  match op with
  | OpReset => out = None /\ retained d' = []
  | OpBlock data skip =>
      exists dropped H, retained d = dropped ++ H /\ retained d' = H ++ data /\ length H + length data <= max_window d /\
        if skip then out = None
        else exists seqs, out = Some seqs /\ apply_seqs H seqs = Some (H ++ data) /\ Forall (seq_bounds (max_window d)) seqs
  end.

(** the pool only decides the capacity of the new entry's (empty) store *)
Lemma commit_space_eq d data : exists cap pool, commit_space d data =
  let* (g, evicted) := add_data (md_gen d) data (ss_new cap) in
  ROk {| md_gen := g; md_pool := pool ++ map (fun e => ss_cap (we_suf e)) evicted |}.
Proof.
  unfold commit_space. destruct (match pool_take _ _ with Some (c, p) => (c, p) | None => _ end) as [cap pool].
  exists cap, pool. reflexivity.
Qed.

Lemma block_done g1 e1 older1 g2 pool : mg_win g1 = e1 :: older1 -> MInv g2 -> same_frame g1 g2 ->
  mg_sidx g2 = length (we_data e1) ->
  let d2 := {| md_gen := g2; md_pool := pool |} in
  DInv d2 /\ max_window d2 = mg_max g1 /\ retained d2 = older_fwd older1 ++ we_data e1.
Proof.
  intros Ew1 HI2 SF F1. destruct (same_frame_head _ _ _ _ SF Ew1) as (e2 & Ew2 & Hd2).
  unfold DInv, ready, max_window, retained. cbn [md_gen]. rewrite Ew2, older_fwd_cons, Hd2.
  destruct SF as (_ & _ & M2 & _). split; [split; [exact HI2|exact F1]|]. split; [exact M2|reflexivity].
Qed.

Theorem mstep_spec d op : DInv d -> op_fits (max_window d) op ->
  exists d' out, mstep d op = ROk (d', out) /\ DInv d' /\ step_good d op d' out.
Proof.
  intros (HI & Hr) Hfit. destruct op as [data skip|]; cbn [mstep op_fits] in *.
  - destruct (commit_space_eq d data) as (cap & pool & ->).
    destruct (add_data_spec (md_gen d) data (ss_new cap) HI Hr Hfit (ss_new_empty cap))
      as (g1 & ev & e1 & older1 & gone & -> & HI1 & M1 & Ew1 & <- & R & Hs1 & Hl1).
    cbn [rbind]. fold (retained d) in R.
    destruct (MInv_cons _ _ _ HI1 Ew1) as (Hw1 & Hm1 & _). cbn [total_len] in Hw1. rewrite <- older_fwd_length in Hw1.
    unfold step_good. fold (max_window d) in M1. rewrite <- M1.
    destruct skip.
    + unfold mgd_skip. cbn [md_gen md_pool].
      destruct (skip_matching_spec g1 e1 older1 HI1 Ew1) as (g2 & -> & HI2 & SF & F1 & _). cbn [rbind].
      destruct (block_done g1 e1 older1 g2 pool Ew1 HI2 SF F1) as (D2 & M2 & R2).
      eexists _, _. split; [reflexivity|]. split; [exact D2|]. split; [exact M2|].
      exists gone, (older_fwd older1). repeat split; try assumption. lia.
    + unfold mgd_start. cbn [md_gen md_pool].
      destruct (start_matching_spec g1 e1 older1 HI1 Ew1) as (seqs & g2 & -> & HI2 & SF & Ap & Bd & F1 & _); [congruence|].
      cbn [rbind]. destruct (block_done g1 e1 older1 g2 pool Ew1 HI2 SF F1) as (D2 & M2 & R2).
      eexists _, _. split; [reflexivity|]. split; [exact D2|]. split; [exact M2|].
      exists gone, (older_fwd older1). split; [exact R|]. split; [exact R2|]. split; [lia|].
      exists seqs. split; [reflexivity|]. rewrite Hl1 in Ap. cbn [firstn] in Ap. rewrite app_nil_r in Ap.
      split; [exact Ap|]. eapply Forall_impl; [|exact Bd]. intros s. apply seq_bounds_mono. exact Hm1.
  - eexists _, _. split; [reflexivity|].
    destruct (reset_spec (md_gen d) HI) as (R1 & R2 & R3).
    unfold mgd_reset. destruct (mg_reset (md_gen d)) as [g fr] eqn:Er. cbn [fst] in *.
    split; [split; [exact R1|unfold ready; cbn [md_gen]; rewrite R2; exact I]|].
    unfold step_good, max_window, retained. cbn [md_gen]. rewrite R2. repeat split. exact R3.
Qed.

Fixpoint mrun_good (d : mgd) (ops : list mop) : Prop :=
  match ops with
  | [] => True
  | op :: t => exists d' out, mstep d op = ROk (d', out) /\ step_good d op d' out /\ mrun_good d' t
  end.

Theorem mrun_spec ops : forall d, DInv d -> Forall (op_fits (max_window d)) ops -> mrun_good d ops.
Proof.
  induction ops as [|op t IH]; intros d HI Hf; cbn [mrun_good]; [exact I|].
  inversion Hf as [|? ? Hop Ht]; subst.
  destruct (mstep_spec d op HI Hop) as (d' & out & E & HI' & G).
  exists d', out. split; [exact E|]. split; [exact G|]. apply IH; [exact HI'|].
  destruct G as [Gm _]. rewrite Gm. exact Ht.
Qed.

Lemma mgd_new_inv s n : DInv (mgd_new s n) /\ max_window (mgd_new s n) = n * s /\ retained (mgd_new s n) = [].
Proof. unfold DInv, MInv, ready, mgd_new, mg_new, max_window, retained. cbn. repeat split; lia. Qed.

(** what "executed with the LZ77 copy" means byte by byte: every copied byte equals the byte [off] positions
    before it (lists newest first) *)
Lemma lz_copy_suffix n : forall off r, exists p, length p = n /\ lz_copy n off r = p ++ r.
Proof.
  induction n as [|k IH]; intros off r; cbn [lz_copy]; [exists []; split; reflexivity|].
  destruct (IH off (nth (off - 1) r 0%Z :: r)) as (p & Lp & E). exists (p ++ [nth (off - 1) r 0%Z]).
  rewrite app_length, Lp, E, <- app_assoc. cbn. split; [lia|reflexivity].
Qed.

Theorem lz_copy_pointwise n : forall off r i, 1 <= off -> i < n ->
  nth i (lz_copy n off r) 0%Z = nth (i + off) (lz_copy n off r) 0%Z.
Proof.
  induction n as [|k IH]; intros off r i Ho Hi; [lia|]. cbn [lz_copy].
  destruct (Nat.eq_dec i k) as [->|Hne].
  - destruct (lz_copy_suffix k off (nth (off - 1) r 0%Z :: r)) as (p & Lp & E). rewrite E.
    rewrite !app_nth2 by lia. rewrite Lp. replace (k - k) with 0 by lia. replace (k + off - k) with (S (off - 1)) by lia.
    reflexivity.
  - apply IH; lia.
Qed.
