(** C04: basic facts about the memory primitives of the ring-buffer model. *)
From Coq Require Import Bool Lia ZArith List.
Import ListNotations.
From Coq Require Import ZifyBool.
Require Import Zrs.model.RingBuffer.

Lemma mod_sub c a : a < 2 * c -> a mod c = if a <? c then a else a - c.
Proof.
  intros Ha. destruct (a <? c) eqn:E.
  - apply Nat.mod_small. lia.
  - symmetry. apply Nat.mod_unique with (q := 1); lia.
Qed.

Lemma all_init_spec m src n :
  all_init m src n = true <-> (forall i, i < n -> exists b, m (src + i) = Some b).
Proof.
  unfold all_init. rewrite forallb_forall. split.
  - intros H i Hi. specialize (H i). rewrite in_seq in H. specialize (H ltac:(lia)).
    destruct (m (src + i)) as [b|]; [eauto|discriminate].
  - intros H i Hi. apply in_seq in Hi. destruct (H i ltac:(lia)) as [b ->]. reflexivity.
Qed.

Lemma next_multiple_ge n k : 1 <= k -> n <= next_multiple n k.
Proof.
  intros Hk. unfold next_multiple.
  pose proof (Nat.div_mod_eq (n + k - 1) k) as E.
  pose proof (Nat.mod_upper_bound (n + k - 1) k ltac:(lia)) as B.
  rewrite Nat.mul_comm. lia.
Qed.

Lemma touched_bounds k sl dl n : 1 <= k -> n <= sl -> n <= dl ->
  n <= touched k sl dl n <= Nat.min sl dl.
Proof.
  intros Hk Hs Hd. unfold touched.
  destruct ((k <=? Nat.min sl dl) && (n <=? k)) eqn:E1; [lia|].
  pose proof (next_multiple_ge n k Hk).
  destruct (next_multiple n k <=? Nat.min sl dl) eqn:E2; lia.
Qed.

(** What a raw write leaves behind: the first [n] cells of the region [dst, dst + dl) hold [v 0 .. v (n-1)], the
    rest of the region holds anything (the overshoot), every cell outside the region is as in [m]. *)
Definition stored (m m' : nat -> option Z) (dst dl n : nat) (v : nat -> option Z) : Prop :=
  (forall j, j < n -> m' (dst + j) = v j) /\ (forall p, ~ (dst <= p < dst + dl) -> m' p = m p).

Lemma stored_update m dst n v :
  stored m (fun j => if (dst <=? j) && (j <? dst + n) then v (j - dst) else m j) dst n n v.
Proof.
  split.
  - intros j Hj. replace ((dst <=? dst + j) && (dst + j <? dst + n)) with true by lia. f_equal. lia.
  - intros p Hp. replace ((dst <=? p) && (p <? dst + n)) with false by lia. reflexivity.
Qed.

Lemma stored_nothing m dst dl v : stored m m dst dl 0 v.
Proof. split; [lia|reflexivity]. Qed.

Lemma copy_region_ok m c src dst n :
  src + n <= c -> dst + n <= c -> (n = 0 \/ src + n <= dst \/ dst + n <= src) ->
  (forall i, i < n -> exists b, m (src + i) = Some b) ->
  exists m', copy_region m c src dst n = Some m' /\ stored m m' dst n n (fun j => m (src + j)).
Proof.
  intros Hs Hd Hdis Hinit. unfold copy_region.
  replace (all_init m src n) with true by (symmetry; apply all_init_spec; exact Hinit).
  replace (disjoint src dst n) with true by (unfold disjoint; lia).
  replace ((src + n <=? c) && (dst + n <=? c)) with true by lia.
  eexists. split; [reflexivity|]. apply (stored_update m dst n (fun j => m (src + j))).
Qed.

(** the contract of [copy_bytes_overshooting], for every chunk size: only the cells that can be touched need to
    be initialised and apart *)
Lemma copy_over_ok k m c src sl dst dl n :
  1 <= k -> n <= sl -> n <= dl -> src + sl <= c -> dst + dl <= c ->
  (src + Nat.min sl dl <= dst \/ dst + Nat.min sl dl <= src) ->
  (forall i, i < Nat.min sl dl -> exists b, m (src + i) = Some b) ->
  exists m', copy_overshooting k m c (src, sl) (dst, dl) n = Some m' /\ stored m m' dst dl n (fun j => m (src + j)).
Proof.
  intros Hk Hs Hd Hsc Hdc Hdis Hinit. unfold copy_overshooting. cbn [fst snd].
  pose proof (touched_bounds k sl dl n Hk Hs Hd) as [T1 T2].
  destruct (copy_region_ok m c src dst (touched k sl dl n)) as (m' & E & A & B); try lia.
  { intros i Hi. apply Hinit. lia. }
  exists m'. split; [exact E|]. split; [intros j Hj; apply A|intros p Hp; apply B]; lia.
Qed.

Lemma stored_over m m1 m2 dst dl n v n' v' : stored m m1 dst dl n v -> stored m1 m2 dst dl n' v' -> stored m m2 dst dl n' v'.
Proof. intros [_ B1] [A2 B2]. split; [exact A2|]. intros p Hp. rewrite B2 by exact Hp. apply B1. exact Hp. Qed.

Lemma write_region_ok m c dst data n v : length data = n -> dst + n <= c ->
  (forall j, j < n -> v j = Some (nth j data 0%Z)) ->
  exists m', write_region m c dst data = Some m' /\ stored m m' dst n n v.
Proof.
  intros <- H V. unfold write_region. replace (dst + length data <=? c) with true by lia.
  eexists. split; [reflexivity|].
  destruct (stored_update m dst (length data) (fun j => Some (nth j data 0%Z))) as [A B].
  split; [intros j Hj; rewrite V by exact Hj; apply A; exact Hj|exact B].
Qed.

Lemma fill_region_ok m c dst b n v : dst + n <= c -> (forall j, j < n -> v j = Some b) ->
  exists m', fill_region m c dst b n = Some m' /\ stored m m' dst n n v.
Proof.
  intros H V. unfold fill_region. replace (dst + n <=? c) with true by lia.
  eexists. split; [reflexivity|].
  destruct (stored_update m dst n (fun _ => Some b)) as [A B].
  split; [intros j Hj; rewrite V by exact Hj; apply A; exact Hj|exact B].
Qed.

Lemma abs_length s : length (abs s) = len s.
Proof. unfold abs. rewrite map_length, seq_length. reflexivity. Qed.

Lemma abs_nth s i : i < len s -> nth i (abs s) 0%Z = cell s i.
Proof.
  intros H. unfold abs.
  rewrite (nth_indep _ 0%Z (cell s 0)) by (rewrite map_length, seq_length; exact H).
  rewrite (map_nth (cell s) (seq 0 (len s)) 0 i). rewrite seq_nth by exact H. reflexivity.
Qed.

Lemma nth_repeat_lt (b : Z) n i : i < n -> nth i (repeat b n) 0%Z = b.
Proof. intros H. rewrite (nth_indep _ 0%Z b) by (rewrite repeat_length; exact H). apply nth_repeat. Qed.
