(** C02 / C16 / C17: the LZ layer closes.  [compress_block] turns the match finder's output into a literal buffer and
    a list of (literal length, match length, offset + 3) triples; executing those with the decoder's
    [execute_sequences] on a buffer that ends with the match finder's retained history appends exactly the bytes the
    match finder's sequences rebuild ([apply_seqs], the statement of C17) -- for every buffer, every offset history. *)
Require Import Zrs.lib.RsPrelude Zrs.gen.Generated Zrs.model.BlockDec Zrs.model.Matcher Zrs.model.BlockEnc.
Require Import Zrs.proofs.C06_Drain Zrs.proofs.C09_Lz Zrs.proofs.C17_Matcher Zrs.proofs.C17_Shape.
Open Scope Z_scope.

Definition mseq_bytes (s : mseq) : nat := match s with MLit l => length l | MTriple l _ ml => length l + ml end.
Fixpoint mseqs_bytes (ms : list mseq) : nat := match ms with [] => 0 | s :: t => mseq_bytes s + mseqs_bytes t end.

Lemma apply_seq_length h s h' : apply_seq h s = Some h' -> length h' = (length h + mseq_bytes s)%nat.
Proof.
  destruct s as [l|l off ml]; cbn [apply_seq mseq_bytes].
  - intros [= <-]. rewrite app_length. reflexivity.
  - destruct (_ && _); [|discriminate]. intros [= <-]. rewrite rev_length, lz_copy_length, rev_length, app_length. lia.
Qed.

Lemma apply_seqs_length ms : forall h h', apply_seqs h ms = Some h' -> length h' = (length h + mseqs_bytes ms)%nat.
Proof.
  induction ms as [|s t IH]; intros h h' H; cbn [apply_seqs mseqs_bytes] in *.
  - injection H as <-. lia.
  - destruct (apply_seq h s) as [h1|] eqn:E; [|discriminate]. rewrite (IH _ _ H), (apply_seq_length _ _ _ E). lia.
Qed.

Lemma mseqs_lits_app a b : mseqs_lits (a ++ b) = mseqs_lits a ++ mseqs_lits b.
Proof. unfold mseqs_lits. rewrite map_app. apply concat_app. Qed.

Lemma mseqs_seqs_app a b : mseqs_seqs (a ++ b) = mseqs_seqs a ++ mseqs_seqs b.
Proof. apply flat_map_app. Qed.

Lemma mseqs_lits_length ms : (length (mseqs_lits ms) <= mseqs_bytes ms)%nat.
Proof.
  induction ms as [|s t IH]; [cbn; lia|]. change (s :: t) with ([s] ++ t). rewrite mseqs_lits_app, app_length.
  cbn [mseqs_bytes app]. destruct s; cbn; rewrite ?app_nil_r; lia.
Qed.

Lemma mseqs_seqs_count ms : Forall long_enough ms -> (2 * length (mseqs_seqs ms) <= mseqs_bytes ms)%nat.
Proof.
  induction 1 as [|s t Hs _ IH]; [cbn; lia|]. change (s :: t) with ([s] ++ t). rewrite mseqs_seqs_app, app_length.
  cbn [mseqs_bytes app]. destruct s; cbn [mseqs_seqs flat_map mseq_bytes length long_enough app] in *; lia.
Qed.

(** a block's trailing literals add no triple: [tail] is what follows the triples in a [block_shape] *)
Lemma tail_lits tail h : (tail = [] \/ exists l, tail = [MLit l]) ->
  mseqs_seqs tail = [] /\ apply_seqs h tail = Some (h ++ mseqs_lits tail).
Proof. intros [->|(l & ->)]; cbn; rewrite ?app_nil_r; split; reflexivity. Qed.

Lemma offset_history_fresh ov ll h1 h2 h3 : 4 <= ov ->
  do_offset_history ov ll [h1; h2; h3] = (ov - 3, [ov - 3; h1; h2]).
Proof.
  intros H4. unfold do_offset_history.
  assert ((1 <=? ov) && (ov <=? 3) = false) as -> by lia.
  assert ((1 <=? ov) && (ov <=? 2) = false) as -> by lia.
  assert (ov =? 1 = false) as -> by lia. assert (ov =? 2 = false) as -> by lia.
  assert (ov =? 3 = false) as -> by lia.
  destruct (ll >? 0); reflexivity.
Qed.

Lemma split_at_app (a b : list Z) : split_at (length a) (a ++ b) = Some (a, b).
Proof. induction a as [|x a IH]; cbn [length split_at app]; [reflexivity|]. rewrite IH. reflexivity. Qed.

Definition hist3 (h : list Z) : Prop := exists a b c, h = [a; b; c].

(** [b] is well formed and ends with [h] (after [pre]); what a block does not touch is as in [b0] *)
Definition buf_is (b0 b : dbuf) (h pre : list Z) : Prop :=
  db_wf b /\ db_rev b = rev h ++ pre /\
  db_dict b = db_dict b0 /\ db_window b = db_window b0 /\ db_hashed_rev b = db_hashed_rev b0.

Lemma push_buf_is b0 b h pre l : buf_is b0 b h pre -> buf_is b0 (db_push b l) (h ++ l) pre.
Proof.
  unfold buf_is, db_wf. intros (W & R & Same). cbn [db_push db_add_total db_append_raw db_len db_rev db_dict db_window db_hashed_rev].
  rewrite rev_append_rev, R. split; [|split; [|exact Same]].
  - rewrite W, R, !app_length, !rev_length. lia.
  - rewrite rev_app_distr, app_assoc. reflexivity.
Qed.

(** ... pushed only when there is something to push, as [exec_loop] and [execute_sequences] do *)
Lemma push_if_buf_is b0 b h pre l : buf_is b0 b h pre ->
  buf_is b0 (if 0 <? Z.of_nat (length l) then db_push b l else b) (h ++ l) pre.
Proof. intros Hb. destruct l as [|x l]; [rewrite app_nil_r; exact Hb|apply push_buf_is; exact Hb]. Qed.

Lemma repeat_buf_is b0 b h pre off ml : buf_is b0 b h pre -> (1 <= off <= length h)%nat ->
  exists b', (if 0 <? Z.of_nat ml then db_repeat b (Z.of_nat off) (Z.of_nat ml) else ROk b) = ROk b' /\
             buf_is b0 b' (rev (lz_copy ml off (rev h))) pre.
Proof.
  intros Hb Hoff. destruct ml as [|ml]; [exists b; cbn [lz_copy]; rewrite rev_involutive; split; [reflexivity|exact Hb]|].
  destruct Hb as (W & R & Same). unfold db_wf in W.
  eexists. split.
  - change (0 <? Z.of_nat (S ml)) with true. cbv iota. unfold db_repeat. rewrite W, R, app_length, rev_length.
    destruct (Z.ltb_spec (Z.of_nat (length h + length pre)) (Z.of_nat off)) as [H|_]; [lia|].
    destruct (Z.eqb_spec (Z.of_nat off) 0) as [H|_]; [lia|]. cbn [andb]. reflexivity.
  - unfold buf_is, db_wf. cbn [db_add_total db_set_rev db_len db_rev db_dict db_window db_hashed_rev].
    rewrite !Nat2Z.id, lz_copy_fast_eq, lz_copy_app, rev_involutive by (rewrite ?app_length, ?rev_length; lia).
    split; [|split; [reflexivity|exact Same]].
    rewrite W, R, !app_length, lz_copy_length, rev_length. lia.
Qed.

Lemma exec_triples ts : forall h h' tail_lits b0 buf hist ssum pre,
  Forall is_triple ts -> apply_seqs h ts = Some h' -> buf_is b0 buf h pre -> hist3 hist ->
  0 <= ssum -> ssum + Z.of_nat (mseqs_bytes ts) <= MAX_BLOCK_SIZE ->
  exists buf' hist',
    exec_loop (mseqs_seqs ts) (mseqs_lits ts ++ tail_lits) buf hist ssum =
      ROk (buf', hist', tail_lits, ssum + Z.of_nat (mseqs_bytes ts)) /\
    buf_is b0 buf' h' pre /\ hist3 hist'.
Proof.
  induction ts as [|s ts IH]; intros h h' tail_lits b0 buf hist ssum pre Ht Ha Hb Hh S0 S1.
  - injection Ha as <-. exists buf, hist. cbn [mseqs_bytes]. rewrite Z.add_0_r. split; [reflexivity|split; assumption].
  - inversion Ht as [|? ? Hs Ht']; subst. destruct s as [l|l off ml]; [contradiction|].
    cbn [apply_seqs apply_seq] in Ha.
    destruct ((1 <=? off)%nat && (off <=? length (h ++ l))%nat) eqn:Eoff; [|discriminate].
    apply andb_prop in Eoff as [O1 O2]. apply Nat.leb_le in O1. apply Nat.leb_le in O2.
    destruct Hh as (h1 & h2 & h3 & ->).
    destruct (repeat_buf_is b0 _ _ pre off ml (push_if_buf_is b0 buf h pre l Hb) (conj O1 O2)) as (buf2 & E2 & Hb2).
    cbn [mseqs_bytes mseq_bytes] in S1 |- *. change MAX_BLOCK_SIZE with 131072 in *.
    destruct (IH _ h' tail_lits b0 buf2 [Z.of_nat off; h1; h2] (ssum + Z.of_nat ml + Z.of_nat (length l)) pre Ht' Ha Hb2
                 ltac:(eexists _, _, _; reflexivity) ltac:(lia) ltac:(lia)) as (buf' & hist' & E & Hb' & Hh').
    exists buf', hist'. split; [|split; assumption].
    change (mseqs_seqs (MTriple l off ml :: ts)) with ({| sq_ll := zlen l; sq_ml := Z.of_nat ml; sq_of := Z.of_nat off + 3 |} :: mseqs_seqs ts).
    change (mseqs_lits (MTriple l off ml :: ts)) with (l ++ mseqs_lits ts).
    cbn [exec_loop sq_ll sq_ml sq_of]. unfold zlen. change MAX_BLOCK_SIZE with 131072.
    destruct (Z.ltb_spec 131072 (ssum + Z.of_nat (length l) + Z.of_nat ml)) as [H|_]; [lia|].
    (* the triple's literals are the front of the literal buffer *)
    replace (if 0 <? Z.of_nat (length l) then _ else _) with (ROk (if 0 <? Z.of_nat (length l) then db_push buf l else buf, mseqs_lits ts ++ tail_lits)).
    2:{ rewrite Nat2Z.id, <- app_assoc, split_at_app. destruct (0 <? Z.of_nat (length l)) eqn:El; [reflexivity|].
        destruct l; [reflexivity|discriminate El]. }
    (* its offset value is above 3: a new offset, whatever the history *)
    cbn [rbind]. rewrite offset_history_fresh by lia. replace (Z.of_nat off + 3 - 3) with (Z.of_nat off) by lia.
    destruct (Z.eqb_spec (Z.of_nat off) 0) as [H|_]; [lia|]. rewrite E2. cbn [rbind].
    destruct (Z.leb_spec (2 ^ 32) (ssum + Z.of_nat ml + Z.of_nat (length l))) as [H|_]; [lia|].
    rewrite E. do 2 f_equal. lia.
Qed.

Theorem matcher_output_executes ts tail H data buf hist pre :
  Forall is_triple ts -> (tail = [] \/ exists l, tail = [MLit l]) ->
  apply_seqs H (ts ++ tail) = Some (H ++ data) ->
  db_wf buf -> db_rev buf = rev H ++ pre -> hist3 hist -> Z.of_nat (length data) <= MAX_BLOCK_SIZE ->
  exists buf' hist',
    execute_sequences (mseqs_seqs (ts ++ tail)) (mseqs_lits (ts ++ tail)) buf hist = ROk (buf', hist') /\
    db_wf buf' /\ db_rev buf' = rev (H ++ data) ++ pre /\ hist3 hist' /\
    db_dict buf' = db_dict buf /\ db_window buf' = db_window buf /\ db_hashed_rev buf' = db_hashed_rev buf.
Proof.
  intros Ht Htail Ha W R Hh Hd.
  rewrite apply_seqs_app in Ha. destruct (apply_seqs H ts) as [h1|] eqn:E1; [|discriminate].
  destruct (tail_lits tail h1 Htail) as (Es & Et). rewrite Et in Ha. injection Ha as Ha.
  rewrite mseqs_seqs_app, Es, app_nil_r, mseqs_lits_app. set (l := mseqs_lits tail) in *.
  pose proof (apply_seqs_length _ _ _ E1) as L1. pose proof (f_equal (@length Z) Ha) as Ltot. rewrite !app_length in Ltot.
  assert (Hb : buf_is buf buf H pre) by (repeat split; assumption).
  change MAX_BLOCK_SIZE with 131072 in *.
  destruct (exec_triples ts H h1 l buf buf hist 0 pre Ht E1 Hb Hh ltac:(lia) ltac:(change MAX_BLOCK_SIZE with 131072; lia))
    as (b1 & hist1 & E & Hb1 & H1).
  pose proof (push_if_buf_is buf b1 h1 pre l Hb1) as (W2 & R2 & Same). rewrite Ha in R2.
  unfold execute_sequences. rewrite E. cbn [rbind]. unfold zlen. change MAX_BLOCK_SIZE with 131072.
  replace (131072 <? 0 + Z.of_nat (mseqs_bytes ts) + Z.of_nat (length l)) with false by lia. rewrite andb_false_r.
  set (b2 := if 0 <? Z.of_nat (length l) then db_push b1 l else b1) in *.
  assert (Elen : (0 + Z.of_nat (mseqs_bytes ts) + Z.of_nat (length l)) mod 2 ^ 32 = db_len b2 - db_len buf).
  { unfold db_wf in *. rewrite Z.mod_small, W2, W, R2, R, !app_length, !rev_length, !app_length by lia. lia. }
  rewrite Elen, Z.eqb_refl. exists b2, hist1. repeat split; try assumption; apply Same.
Qed.
