(** C02 / C13: the weights [build_from_data] assigns.  The histogram is sorted by count and the weights of the shape
    are handed out by rank; whatever the counts are, the resulting weight list carries exactly the weights of the
    shape on exactly the symbols that occur, so it is one of the assignments of
    [assignment_of_the_shape_is_complete]: a complete weight list in which every literal has a code. *)
Require Import Zrs.lib.RsPrelude Zrs.proofs.ModelFacts Zrs.lib.ListFacts Zrs.model.FseDec Zrs.model.HufEnc Zrs.model.HufCounts.
Require Import Permutation.
Require Import Zrs.proofs.C13_Huffman Zrs.proofs.C13_EncWeights Zrs.proofs.C02_O2Huffman.
Open Scope Z_scope.

Definition posw (w : Z) : bool := 0 <? w.
Definition nzc (c : Z) : bool := negb (c =? 0).

Lemma ins_count_perm e l : Permutation (ins_count e l) (e :: l).
Proof.
  induction l as [|h t IH]; cbn [ins_count]; [apply Permutation_refl|].
  destruct (snd h <=? snd e); [|apply Permutation_refl].
  eapply perm_trans; [apply perm_skip; exact IH|apply perm_swap].
Qed.
Lemma fold_ins_perm l : forall acc, Permutation (fold_left (fun acc e => ins_count e acc) l acc) (l ++ acc).
Proof.
  induction l as [|e t IH]; intros acc; cbn [fold_left app]; [apply Permutation_refl|].
  eapply perm_trans; [apply IH|]. eapply perm_trans; [apply Permutation_app_head; apply ins_count_perm|].
  apply Permutation_sym, Permutation_middle.
Qed.
Lemma counts_sorted_perm counts : Permutation (counts_sorted counts) (enumerate_from 0 counts).
Proof. unfold counts_sorted. eapply perm_trans; [apply fold_ins_perm|]. rewrite app_nil_r. apply Permutation_refl. Qed.

Lemma enumerate_fst l : forall i, map fst (enumerate_from i l) = seq i (length l).
Proof. induction l as [|c t IH]; intros i; cbn [enumerate_from map length seq fst]; [reflexivity|]. rewrite IH. reflexivity. Qed.
Lemma enumerate_snd l : forall i, map snd (enumerate_from i l) = l.
Proof. induction l as [|c t IH]; intros i; cbn [enumerate_from map snd]; [reflexivity|]. rewrite IH. reflexivity. Qed.
Lemma enumerate_nth l : forall k j, (j < length l)%nat -> In ((k + j)%nat, nth j l 0) (enumerate_from k l).
Proof.
  induction l as [|c t IH]; intros k [|j] H; cbn [length enumerate_from nth In] in *; try lia.
  - left. f_equal. lia.
  - right. replace (k + S j)%nat with (S k + j)%nat by lia. apply IH. lia.
Qed.

Lemma filter_upd (l : list Z) : forall i v, (i < length l)%nat -> nth i l 0 = 0 ->
  Permutation (filter posw (upd l i v)) (filter posw [v] ++ filter posw l).
Proof.
  induction l as [|h t IH]; intros [|i] v Hi Hz; cbn [upd length nth] in *; try lia.
  - subst h. cbn [filter app]. change (posw 0) with false. destruct (posw v); apply Permutation_refl.
  - cbn [filter]. destruct (posw h); [|apply IH; [lia|exact Hz]].
    eapply perm_trans; [apply perm_skip, IH; [lia|exact Hz]|apply Permutation_middle].
Qed.

(** the assignment by rank: every entry of [sorted] names a position that still holds 0; the non-zero counts take
    the weights of [stack] in order, the others weight 0 *)
Lemma assign_rank_spec : forall sorted stack W,
  NoDup (map fst sorted) ->
  (forall idx c, In (idx, c) sorted -> (idx < length W)%nat /\ nth idx W 0 = 0) ->
  Forall (fun w => 0 < w) stack -> length (filter nzc (map snd sorted)) = length stack -> Forall (fun w => 0 <= w) W ->
  exists W', assign_rank sorted stack W = ROk W' /\ length W' = length W /\
    Permutation (filter posw W') (filter posw W ++ stack) /\
    (forall i, ~ In i (map fst sorted) -> nth i W' 0 = nth i W 0) /\
    (forall idx c, In (idx, c) sorted -> (0 < nth idx W' 0 <-> c <> 0)) /\
    Forall (fun w => 0 <= w) W'.
Proof.
  induction sorted as [|[idx c] t IH]; intros stack W Hnd Hin Hst Hlen Hnn.
  - destruct stack; [|discriminate]. exists W. rewrite app_nil_r. repeat split; try assumption; try contradiction; apply Permutation_refl.
  - cbn [map fst] in Hnd. apply NoDup_cons_iff in Hnd as [Hni Hnd].
    destruct (Hin idx c (or_introl eq_refl)) as [Hidx Hz].
    (* one step: position [idx] takes [v], which is 0 or the next weight of the stack *)
    assert (exists v st, assign_rank ((idx, c) :: t) stack W = assign_rank t st (upd_n W idx v) /\ (0 < v <-> c <> 0) /\ 0 <= v /\
              Forall (fun w => 0 < w) st /\ length (filter nzc (map snd t)) = length st /\ filter posw [v] ++ st = stack)
      as (v & st & -> & Hv & Hv0 & Hst' & Hlen' & <-).
    { cbn [assign_rank map snd filter] in *. change (nzc c) with (negb (c =? 0)) in Hlen. destruct (Z.eqb_spec c 0) as [->|Hc]; cbn [negb] in Hlen.
      - exists 0, stack. repeat split; try assumption; lia.
      - destruct stack as [|w st]; [discriminate|]. apply Forall_cons_iff in Hst as [Hw Hst]. injection Hlen as Hlen.
        exists w, st. unfold posw. destruct (Z.ltb_spec 0 w); [|lia]. repeat split; try assumption; lia. }
    rewrite upd_n_upd. destruct (IH st (upd W idx v)) as (W' & E & L & P & Hout & Hiff & Hnn'); try assumption.
    { intros idx' c' H. destruct (Hin idx' c' (or_intror H)) as [A B]. rewrite upd_length. split; [exact A|].
      rewrite nth_upd_neq; [exact B|]. intros ->. apply Hni. change idx' with (fst (idx', c')). apply in_map. exact H. }
    { apply Forall_upd; assumption. }
    exists W'. split; [exact E|]. split; [rewrite L; apply upd_length|]. split; [|split; [|split; [|exact Hnn']]].
    + eapply perm_trans; [exact P|]. eapply perm_trans; [apply Permutation_app_tail, filter_upd; assumption|].
      rewrite <- app_assoc. apply Permutation_app_swap_app.
    + intros i Hi. cbn [map fst In] in Hi. rewrite Hout by tauto. apply nth_upd_neq. tauto.
    + intros idx' c' [H|H]; [|apply Hiff; exact H].
      injection H as <- <-. rewrite Hout by exact Hni. rewrite nth_upd_eq by exact Hidx. exact Hv.
Qed.

Lemma filter_nzc_perm a b : Permutation a b -> length (filter nzc a) = length (filter nzc b).
Proof. induction 1 as [|x l l' _ IH|x y l|l l' l'' _ IH1 _ IH2]; cbn [filter]; [reflexivity| | |congruence]; repeat destruct (nzc _); cbn [length]; congruence. Qed.
Lemma nth_zeros (l : list Z) i : nth i (map (fun _ => 0) l) 0 = 0.
Proof. revert i; induction l as [|h t IH]; intros [|i]; cbn [map nth]; auto. Qed.
Lemma filter_zeros (l : list Z) : filter posw (map (fun _ => 0) l) = [].
Proof. induction l as [|h t IH]; cbn [map filter]; [reflexivity|]. exact IH. Qed.

Theorem weights_from_counts_spec counts : (length counts <= 256)%nat ->
  let n := Z.of_nat (length (filter nzc counts)) in 2 <= n ->
  exists sh W, shape n = ROk sh /\ weights_from_counts counts = ROk W /\ length W = length counts /\
    Permutation (filter posw W) sh /\ Forall (fun w => 0 <= w) W /\
    (forall i, (i < length counts)%nat -> (0 < nth i W 0 <-> nth i counts 0 <> 0)).
Proof.
  intros Hlen n Hn.
  assert (Hn256 : n <= 256) by (pose proof (filter_len_le nzc counts); lia).
  destruct (shape_valid n ltac:(lia)) as (sh & Esh & Lsh & _ & Hrange & _).
  pose proof (counts_sorted_perm counts) as Hperm.
  destruct (assign_rank_spec (counts_sorted counts) sh (map (fun _ => 0) counts)) as (W & E & L & P & _ & Hiff & Hnn).
  - eapply Permutation_NoDup; [apply Permutation_sym, (Permutation_map fst Hperm)|]. rewrite enumerate_fst. apply seq_NoDup.
  - intros idx c H. apply (in_map fst), (Permutation_in _ (Permutation_map fst Hperm)) in H. rewrite enumerate_fst in H. apply in_seq in H.
    rewrite map_length. split; [cbn [fst] in H; lia|apply nth_zeros].
  - eapply Forall_impl; [|exact Hrange]. cbv beta. lia.
  - rewrite (filter_nzc_perm _ _ (Permutation_map snd Hperm)), enumerate_snd. lia.
  - apply Forall_forall. intros w Hw. apply in_map_iff in Hw as (_ & <- & _). lia.
  - exists sh, W. split; [exact Esh|]. split.
    { unfold weights_from_counts. destruct (Z.ltb_spec 256 (Z.of_nat (length counts))) as [Hc|_]; [lia|].
      fold nzc. fold n. rewrite Esh. cbn [rbind]. exact E. }
    split; [rewrite L; apply map_length|]. split; [rewrite filter_zeros in P; exact P|]. split; [exact Hnn|].
    intros i Hi. apply Hiff, (Permutation_in _ (Permutation_sym Hperm)), (enumerate_nth counts 0 i Hi).
Qed.

Lemma count_z_pos s data : 0 < count_z s data <-> In s data.
Proof.
  unfold count_z. induction data as [|h t IH]; cbn [filter length In]; [split; [lia|contradiction]|].
  destruct (Z.eqb_spec s h) as [->|Hne]; cbn [length].
  - split; [intros _; left; reflexivity|lia].
  - rewrite IH. split; [intros H; right; exact H|intros [H|H]; [congruence|exact H]].
Qed.
Lemma one_nonzero (l : list Z) : forall b, nth b l 0 <> 0 -> (1 <= length (filter nzc l))%nat.
Proof.
  induction l as [|h t IH]; intros [|b] H; cbn [nth filter] in *; try congruence.
  - unfold nzc at 1. destruct (Z.eqb_spec h 0); [congruence|]. cbn [negb length]. lia.
  - specialize (IH b H). destruct (nzc h); cbn [length]; lia.
Qed.
Lemma two_nonzero (l : list Z) : forall a b, a <> b -> nth a l 0 <> 0 -> nth b l 0 <> 0 -> (2 <= length (filter nzc l))%nat.
Proof.
  induction l as [|h t IH]; intros [|a] [|b] Hab Ha Hb; cbn [nth filter] in *; try congruence.
  1, 2: unfold nzc at 1; destruct (Z.eqb_spec h 0); [congruence|]; cbn [negb length].
  - pose proof (one_nonzero t b Hb). lia.
  - pose proof (one_nonzero t a Ha). lia.
  - specialize (IH a b ltac:(congruence) Ha Hb). destruct (nzc h); cbn [length]; lia.
Qed.

Lemma counts_of_data_spec data a b : Forall (fun s => 0 <= s) data -> In a data -> In b data -> a <> b ->
  let mx := fold_right Z.max 0 data in let counts := counts_of_data data in
  In mx data /\ length counts = S (Z.to_nat mx) /\ (forall s, In s data -> 0 <= s <= mx /\ nth (Z.to_nat s) counts 0 <> 0) /\
  (2 <= length (filter nzc counts))%nat.
Proof.
  intros Hnn Ha Hb Hab mx counts. rewrite Forall_forall in Hnn.
  assert (Hle : forall s, In s data -> 0 <= s <= mx) by (intros s Hs; split; [apply Hnn, Hs|apply fold_max_ge, Hs]).
  assert (Nz : forall s, In s data -> nth (Z.to_nat s) counts 0 <> 0).
  { intros s Hs. pose proof (Hle s Hs). unfold counts, counts_of_data. fold mx.
    rewrite (nth_indep _ 0 (count_z (Z.of_nat 0) data)), (map_nth (fun s => count_z (Z.of_nat s) data)), seq_nth by (rewrite ?map_length, ?seq_length; lia).
    cbn [Nat.add]. rewrite Z2Nat.id by lia. apply count_z_pos in Hs. lia. }
  pose proof (Hle a Ha). pose proof (Hle b Hb).
  split; [apply fold_max_in; fold mx; lia|]. split; [unfold counts, counts_of_data; rewrite map_length; apply seq_length|].
  split; [intros s Hs; split; [apply Hle, Hs|apply Nz, Hs]|].
  apply (two_nonzero counts (Z.to_nat a) (Z.to_nat b)); [lia|apply Nz, Ha|apply Nz, Hb].
Qed.

(** the table [build_from_data] computes from literals with at least two different bytes: the code of a complete weight
    list in which every literal has a code, and whose weights are read off the code again ([enc_weights], as
    [write_table] does) *)
Theorem build_from_data_spec data a b :
  Forall (fun s => 0 <= s <= 255) data -> In a data -> In b data -> a <> b ->
  exists ws lw M codes, build_from_data data = ROk codes /\ enc_build_from_weights (ws ++ [lw]) = ROk codes /\
    enc_weights codes = ws ++ [lw] /\ complete_weights ws lw M /\ Forall (has_code ws lw) data.
Proof.
  intros Hbytes Ha Hb Hab.
  destruct (counts_of_data_spec data a b ltac:(eapply Forall_impl; [|exact Hbytes]; cbv beta; lia) Ha Hb Hab) as (Hmx_in & Lc & Hdata & Hn2).
  set (mx := fold_right Z.max 0 data) in *. set (counts := counts_of_data data) in *.
  rewrite Forall_forall in Hbytes. pose proof (Hbytes mx Hmx_in) as Hmx.
  assert (Hn256 : 2 <= Z.of_nat (length (filter nzc counts)) <= 256) by (pose proof (filter_len_le nzc counts); lia).
  destruct (weights_from_counts_spec counts ltac:(lia) (proj1 Hn256)) as (sh & W & Esh & EW & LW & P & Wnn & Hiff).
  assert (Hhas : forall s, In s data -> 0 <= s <= mx /\ 0 < nth (Z.to_nat s) W 0).
  { intros s Hs. destruct (Hdata s Hs) as [Hr Hnz]. split; [exact Hr|]. apply Hiff; [lia|exact Hnz]. }
  (* the largest byte occurs, so the last weight is positive *)
  destruct (exists_last (l := W) ltac:(intros ->; cbn [length] in LW; lia)) as (ws & lw & ->).
  assert (Lws : length ws = Z.to_nat mx) by (rewrite app_length in LW; cbn [length] in LW; lia).
  assert (Hlw : 0 < lw) by (rewrite <- (nth_middle ws [] lw 0), Lws; apply Hhas, Hmx_in).
  destruct (assignment_of_the_shape_is_complete _ sh ws lw Hn256 Esh P Wnn ltac:(lia) Hlw) as (M & Hc).
  destruct (complete_weights_serve ws lw M Hc) as (_ & _ & _ & _ & codes & _ & Ecodes & _).
  exists ws, lw, M, codes. split; [unfold build_from_data, build_from_counts; fold counts; rewrite EW; exact Ecodes|].
  split; [exact Ecodes|]. split; [|split; [exact Hc|]].
  - pose proof Hc as (_ & _ & HlwM & _ & _ & Hk). apply enc_weights_are_the_weights; [| |exact Ecodes].
    + rewrite Hk, Z.log2_pow2 by lia. exact (complete_weights_range ws lw M Hc).
    + pose proof (shape_has_one _ sh Hn256 Esh) as H1. apply (Permutation_in _ (Permutation_sym P)), filter_In in H1. tauto.
  - apply Forall_forall. intros s Hs. unfold has_code. rewrite Lws. destruct (Hhas s Hs). split; [lia|assumption].
Qed.
