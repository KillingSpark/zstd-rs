(** C16: the any-matcher block encoder of proofs/C16_AnyMatcher.v with a remembered table of any type; the frame theorem
    for the modelled literals part (proofs/C02_LitPart.v, proofs/C02_Closed.v). *)
Require Import Zrs.lib.RsPrelude Zrs.model.FrameEnc Zrs.model.Matcher.
Require Import Zrs.model.BlockEnc Zrs.model.SeqNorm.
Require Import Zrs.proofs.C02_Roundtrip Zrs.proofs.C02_Concrete Zrs.proofs.C02_O1.
Require Import Zrs.model.LitComp Zrs.proofs.C02_Closed.
Open Scope Z_scope.

Section AnyMatcherClosed.
  Variable M : Type.
  Variable mrun : M -> list Z -> bool -> res (M * option (list mseq)).
  Variable mreset : M -> M.
  Variable MI : M -> Prop.
  Variable mwin : M -> nat.
  Variable T : Type.
  Variable tnone : T.
  Variable litenc : T -> list Z -> list Z * list Z * T.
  Record ucst2 := { u2_m : M; u2_ht : T }.

  Definition ublock2 (cs : ucst2) (blk : list Z) : list Z * ucst2 :=
    match mrun (u2_m cs) blk false with
    | ROk (m', Some ms) =>
        let lits := mseqs_lits ms in
        let seqs := mseqs_seqs ms in
        let '(hdr, payload, o') := litenc (u2_ht cs) lits in
        let '(dl, do, dm) := norm_model seqs in
        match seq_part dl do dm seqs with
        | ROk sp => (hdr ++ payload ++ sp, {| u2_m := m'; u2_ht := o' |})
        | _ => ([], {| u2_m := m'; u2_ht := o' |})
        end
    | _ => ([], cs)
    end.
  Definition uskip2 (cs : ucst2) (blk : list Z) : ucst2 :=
    match mrun (u2_m cs) blk true with
    | ROk (m', _) => {| u2_m := m'; u2_ht := u2_ht cs |}
    | _ => cs
    end.
  Definition ufallback2 (cs : ucst2) : ucst2 := {| u2_m := u2_m cs; u2_ht := tnone |}.
  Definition ureset2 (cs : ucst2) : ucst2 := {| u2_m := mreset (u2_m cs); u2_ht := tnone |}.

  Definition UInit2 (cs : ucst2) : Prop := MI (u2_m cs) /\ 131072 <= Z.of_nat (mwin (u2_m cs)) < 2 ^ 31.
End AnyMatcherClosed.

(** with the modelled literals part: no obligation left but the matcher's contract *)
Theorem any_matcher_roundtrip_closed (M : Type) (mrun : M -> list Z -> bool -> res (M * option (list mseq))) (mreset : M -> M)
    (MI : M -> Prop) (mret : M -> list Z) (mwin : M -> nat) :
  meets_contract mrun MI mret mwin ->
  (forall m, MI m -> MI (mreset m) /\ mwin (mreset m) = mwin m /\ mret (mreset m) = []) ->
  forall slice wsize hash32 cs data script frame cs' r',
  UInit2 M MI mwin _ cs -> 1 <= Z.of_nat slice <= 131072 -> 1 <= wsize <= 2 ^ 27 ->
  (forall h x, hash32 = Some h -> length (h x) = 4%nat) ->
  compress_frame (ucst2 M (option codes_t)) (ublock2 M mrun _ litenc_model) (uskip2 M mrun _) (ufallback2 M _ None) (ureset2 M mreset _ None) LFastest slice wsize hash32 cs
    {| rd_data := data; rd_script := script |} = ROk (frame, cs', r') ->
  frame_decodes_to frame data hash32.
Proof.
  intros Hc Hr.
  exact (any_encoder_roundtrip M mrun mreset MI mret mwin Hc Hr norm_model norm_model_meets_O1
           (option codes_t) None trel_model trel_model_none trel_model_init litenc_model litenc_model_meets_O2
           (ucst2 M _) (u2_m M _) (u2_ht M _) (Build_ucst2 M _) (fun _ _ => eq_refl) (fun _ _ => eq_refl)).
Qed.
