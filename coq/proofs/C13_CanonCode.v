(** C13 / C02: the code word read off a decoding table for a symbol (its first index, shortened to the code length) is
    well formed and is resolved by exactly the table indices that start with it -- for every table the decoder builds
    and every symbol that has a code.  These are the side conditions of the literals round-trip theorems
    ([code_ok_b], [resolves_b] of model/LitEnc.v), here proved for all tables instead of evaluated. *)
Require Import Zrs.lib.RsPrelude Zrs.lib.ListFacts Zrs.model.HufDec Zrs.model.LitEnc.
Require Import Zrs.proofs.C03_HufComplete Zrs.proofs.C13_Canonical.
Open Scope Z_scope.

Lemma find_sym_first l : forall i0 s k, (k < length l)%nat -> h_sym (nth k l hentry0) = s ->
  (forall j, (j < k)%nat -> h_sym (nth j l hentry0) <> s) -> find_sym l i0 s = Some (i0 + Z.of_nat k, nth k l hentry0).
Proof.
  induction l as [|e t IH]; intros i0 s k Hk Hs Hfirst; [cbn in Hk; lia|]. cbn [find_sym].
  destruct k as [|k].
  - cbn [nth] in *. rewrite Hs, Z.eqb_refl. replace (i0 + Z.of_nat 0) with i0 by lia. reflexivity.
  - destruct (Z.eqb_spec (h_sym e) s) as [E|_]; [exfalso; apply (Hfirst 0%nat ltac:(lia)); exact E|].
    cbn [nth]. rewrite (IH (i0 + 1) s k ltac:(cbn in Hk; lia) Hs); [replace (i0 + 1 + Z.of_nat k) with (i0 + Z.of_nat (S k)) by lia; reflexivity|].
    intros j Hj. apply (Hfirst (S j)). lia.
Qed.



(** the first entry carrying a symbol is the first entry of its block: every entry lies in some block and different
    blocks carry different symbols *)
Section BlockCode.
  Variables (t : huf_table) (bits : list Z) (placed : list blk).
  Let dec := ht_decode t.
  Let M := ht_max_bits t.
  Hypothesis ND : NoDup (map blk_sym placed).
  Hypothesis Hblk : forall s base n, In (s, base, n) placed ->
    (n < Z.to_nat M)%nat /\ 0 <= s < Z.of_nat (length bits) /\ 0 <= base /\ base + 2 ^ Z.of_nat n <= 2 ^ M /\ base mod 2 ^ Z.of_nat n = 0 /\
    forall i, base <= i < base + 2 ^ Z.of_nat n -> nth_h dec i = {| h_sym := s; h_bits := M - Z.of_nat n |}.
  Hypothesis Hcover : forall i, 0 <= i < 2 ^ M -> exists s base n, In (s, base, n) placed /\ base <= i < base + 2 ^ Z.of_nat n.
  Hypothesis Ldec : Z.of_nat (length dec) = 2 ^ M.

  Lemma block_code s base n : In (s, base, n) placed -> code_of_dec t s = (base / 2 ^ Z.of_nat n, Z.to_nat (M - Z.of_nat n)).
  Proof.
    intros Hin. destruct (Hblk s base n Hin) as (B1 & B2 & B3 & B4 & B5 & B6).
    assert (P : 0 < 2 ^ Z.of_nat n) by (apply Z.pow_pos_nonneg; lia).
    assert (Eb : nth (Z.to_nat base) dec hentry0 = {| h_sym := s; h_bits := M - Z.of_nat n |}) by (apply (B6 base); lia).
    unfold code_of_dec. fold dec M. rewrite (find_sym_first dec 0 s (Z.to_nat base)); [|lia|rewrite Eb; reflexivity|].
    - rewrite Eb. cbn [h_bits]. rewrite Z.add_0_l, Z2Nat.id by lia. replace (M - (M - Z.of_nat n)) with (Z.of_nat n) by lia. reflexivity.
    - intros j Hj Hs. destruct (Hcover (Z.of_nat j) ltac:(lia)) as (s' & base' & n' & Hin' & Hr').
      destruct (Hblk s' base' n' Hin') as (_ & _ & _ & _ & _ & B6').
      pose proof (B6' (Z.of_nat j) Hr') as X. unfold nth_h in X. rewrite Nat2Z.id in X. rewrite X in Hs. cbn [h_sym] in Hs. subst s'.
      pose proof (nodup_key blk_sym placed (s, base, n) (s, base', n') ND Hin Hin' eq_refl) as Eq. injection Eq as <- <-. lia.
  Qed.
End BlockCode.

Theorem built_table_codes ws dec M bits ranks idxs t : Forall (fun w => 0 <= w) ws -> (length ws <= 255)%nat ->
  build_table_from_weights ws = ROk (dec, M, bits, ranks, idxs) -> ht_decode t = dec -> ht_max_bits t = M ->
  (forall i, 0 <= i < 2 ^ M -> let s := h_sym (nth_h dec i) in
     code_ok_b (Z.to_nat M) (code_of_dec t) s = true /\ resolves_b t (Z.to_nat M) (code_of_dec t) s = true) /\
  (forall j, (j < length bits)%nat -> 0 < nth j bits 0 ->
     code_ok_b (Z.to_nat M) (code_of_dec t) (Z.of_nat j) = true /\ resolves_b t (Z.to_nat M) (code_of_dec t) (Z.of_nat j) = true /\
     snd (code_of_dec t (Z.of_nat j)) = Z.to_nat (nth j bits 0)).
Proof.
  intros Hnn Hlen Hb Hd Hm. subst dec M.
  destruct (built_table_blocks ws _ _ bits ranks idxs Hnn Hlen Hb) as (placed & ND & Hblk & Hcover & Hsyms).
  destruct (built_huffman_table_complete ws _ _ bits ranks idxs Hnn Hb) as (Ldec & HM & Hbits).
  set (M := ht_max_bits t) in *.
  assert (Hone : forall s base n, In (s, base, n) placed ->
            code_ok_b (Z.to_nat M) (code_of_dec t) s = true /\ resolves_b t (Z.to_nat M) (code_of_dec t) s = true).
  { intros s base n Hin. pose proof (block_code t bits placed ND Hblk Hcover Ldec s base n Hin) as Ecode. fold M in Ecode.
    destruct (Hblk s base n Hin) as (B1 & B2 & B3 & B4 & B5 & B6).
    assert (P : 0 < 2 ^ Z.of_nat n) by (apply Z.pow_pos_nonneg; lia).
    rewrite Z.mod_divide in B5 by lia. destruct B5 as (q & Eq).
    assert (Eq' : base / 2 ^ Z.of_nat n = q) by (rewrite Eq; apply Z.div_mul; lia).
    assert (E2 : 2 ^ M = 2 ^ (M - Z.of_nat n) * 2 ^ Z.of_nat n) by (rewrite <- Z.pow_add_r by lia; f_equal; lia).
    split.
    - unfold code_ok_b. rewrite Ecode. cbn [fst snd]. rewrite Eq', Z2Nat.id by lia.
      assert (0 <= q < 2 ^ (M - Z.of_nat n)) by nia.
      apply andb_true_intro; split; [apply andb_true_intro; split; [apply andb_true_intro; split|]|]; lia.
    - unfold resolves_b. rewrite Ecode. cbn [fst snd]. rewrite Eq'.
      replace (Z.to_nat M - Z.to_nat (M - Z.of_nat n))%nat with n by lia. rewrite <- Eq.
      apply forallb_forall. intros k Hk. apply in_seq in Hk.
      rewrite (B6 (base + Z.of_nat k)) by lia. cbn [h_sym h_bits]. rewrite Z.eqb_refl. rewrite Z2Nat.id by lia. rewrite Z.eqb_refl. reflexivity. }
  split.
  - intros i Hi. cbn zeta. destruct (Hcover i Hi) as (s & base & n & Hin & Hr). destruct (Hblk s base n Hin) as (_ & _ & _ & _ & _ & B6).
    rewrite (B6 i Hr). cbn [h_sym]. exact (Hone s base n Hin).
  - intros j Hj Hpos. destruct (Hsyms j Hj Hpos) as (base & Hin & _). destruct (Hone _ _ _ Hin) as (A & B).
    split; [exact A|]. split; [exact B|]. rewrite (block_code t bits placed ND Hblk Hcover Ldec _ _ _ Hin). cbn [snd]. fold M.
    destruct (build_table_inv ws _ _ bits ranks idxs Hnn Hb) as (_ & _ & _ & _ & _ & Hrange & _).
    rewrite Forall_forall in Hrange. pose proof (Hrange _ (nth_In bits 0 Hj)). f_equal. lia.
Qed.

Theorem decoder_table_side_conditions ht src t used : huf_build_decoder ht src = ROk (t, used) ->
  Forall (fun w => 0 <= w) (ht_weights t) -> (length (ht_weights t) <= 255)%nat ->
  let mn := Z.to_nat (ht_max_bits t) in
  table_side_b t mn = true /\
  forall i, 0 <= i < 2 ^ ht_max_bits t -> let s := h_sym (nth_h (ht_decode t) i) in
    code_ok_b mn (code_of_dec t) s = true /\ resolves_b t mn (code_of_dec t) s = true.
Proof.
  unfold huf_build_decoder. intros H Hw Hl.
  destruct (read_weights ht src) as [[[ws ft] bytes]|e|e]; cbn [rbind] in H; try discriminate.
  destruct (build_table_from_weights ws) as [[[[[dec M] bits] ranks] idxs]|e|e] eqn:Eb; cbn [rbind] in H; try discriminate.
  injection H as <- _. cbn [ht_weights ht_max_bits ht_decode] in *.
  destruct (built_huffman_table_complete ws dec M bits ranks idxs Hw Eb) as (Ld & HM & _).
  split.
  - unfold table_side_b. cbn [ht_max_bits ht_len]. rewrite Z2Nat.id by lia. rewrite !Z.eqb_refl.
    assert ((1 <=? Z.to_nat M)%nat = true) as -> by (apply Nat.leb_le; lia). reflexivity.
  - set (t := {| ht_decode := dec; ht_len := 2 ^ M; ht_weights := ws; ht_max_bits := M; ht_bits := bits; ht_bit_ranks := ranks; ht_rank_indexes := idxs; ht_fse := ft |}).
    destruct (built_table_codes ws dec M bits ranks idxs t Hw Hl Eb eq_refl eq_refl) as (A & _). exact A.
Qed.
