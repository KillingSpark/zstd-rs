(** C03 at the level of the public entry points: decode_all, decode_from_to, the streaming read, read / collect /
    collect_to_writer never panic on any bytes, for every decoder in the sound condition; their loops end within their
    fuel because every round consumes input. *)
Require Import Zrs.lib.RsPrelude Zrs.lib.ResFacts Zrs.model.BlockDec Zrs.model.FrameDec.
Require Import Zrs.proofs.C06_Frame Zrs.proofs.C07_Reuse Zrs.proofs.C11_Reset.
Require Import Zrs.proofs.C03_FrameTotal.
Open Scope Z_scope.

Lemma drain_paths_keep_dicts d :
  (forall n, fd_dicts (snd (fdec_read d n)) = fd_dicts d) /\ fd_dicts (snd (fdec_collect d)) = fd_dicts d /\
  (forall St (sstep : St -> Z -> sink_resp * St) split st,
     fd_dicts (snd (fst (fst (fdec_collect_to_writer sstep d split st)))) = fd_dicts d).
Proof.
  unfold fdec_read, fdec_collect, fdec_collect_to_writer. destruct (fd_state d) as [s|]; [|repeat split].
  split; [intros n; destruct (if fr_finished s then _ else _); reflexivity|]. split.
  - destruct (st_is_finished s); [destruct (db_drain_all _); reflexivity|].
    destruct (db_can_drain_to_window _); [destruct (db_drain_amount _ _)|]; reflexivity.
  - intros St sstep split st. destruct (db_drain_to_sink _ _ _ _ _ _) as [[[o b] k] st2]. reflexivity.
Qed.

(** a drained state has a well-formed buffer and the tables it had *)
Lemma drained_dec_sound d d' s s' out : dec_sound d -> fd_dicts d' = fd_dicts d ->
  fd_state d = Some s -> fd_state d' = Some s' -> drained s s' out -> dec_sound d'.
Proof.
  intros (HD & HS) Ed Es Es' ((_ & _ & _ & _ & _ & _ & Eh & Ef & _) & Sok & _). rewrite Es in HS. destruct HS as (_ & H & F).
  split; [rewrite Ed; exact HD|]. rewrite Es'. split; [exact Sok|]. rewrite Eh, Ef. split; assumption.
Qed.

Lemma read_step d n out d' : dec_sound d -> 0 <= n -> fdec_read d n = (out, d') ->
  dec_sound d' /\ zlen out <= n /\ is_some (fd_state d') = is_some (fd_state d).
Proof.
  intros Sd Hn H. pose proof (proj1 (drain_paths_keep_dicts d) n) as Ed. rewrite H in Ed.
  destruct (fd_state d) as [s|] eqn:Es.
  - pose proof Sd as (_ & HS). rewrite Es in HS.
    destruct (read_spec d s n out d' Es (proj1 HS) Hn H) as (s' & Es' & Dr & Lo & _).
    split; [exact (drained_dec_sound d d' s s' out Sd Ed Es Es' Dr)|]. split; [unfold zlen; lia|rewrite Es'; reflexivity].
  - unfold fdec_read in H. rewrite Es in H. injection H as <- <-. split; [exact Sd|]. split; [unfold zlen; cbn; lia|rewrite Es; reflexivity].
Qed.

Lemma decode_all_inner_ok fuel : forall d input room w, (length input < fuel)%nat -> dec_sound d -> bytes_ok input = true -> 0 <= room ->
  post (decode_all_inner fuel d input room w) (fun '(d', input', room', w') =>
    dec_sound d' /\ bytes_ok input' = true /\ (length input' + 3 <= length input)%nat /\ 0 <= room').
Proof.
  induction fuel as [|f IH]; intros d input room w Hf S B Hr; [lia|]. cbn [decode_all_inner].
  eapply post_bind; [apply fdec_decode_blocks_post; assumption|]. intros [[d1 in1] fin] (S1 & B1 & L1 & _).
  destruct (fdec_read d1 room) as [out d2] eqn:Er. destruct (read_step _ _ _ _ S1 Hr Er) as (S2 & Lo & _).
  destruct (negb _); [exact I|]. destruct (fdec_is_finished d2).
  - split; [exact S2|]. split; [exact B1|]. split; [exact L1|lia].
  - eapply post_mono; [apply IH; [lia|exact S2|exact B1|lia]|].
    intros [[[d' i'] r'] w'] (A & B' & L & R). split; [exact A|]. split; [exact B'|]. split; [lia|exact R].
Qed.

Lemma fdec_reset_post d src : dec_sound d -> bytes_ok src = true ->
  post (fdec_reset d src) (fun '(d', rest, evs) =>
    dec_sound d' /\ bytes_ok rest = true /\ (length rest <= length src)%nat /\ is_some (fd_state d') = true).
Proof.
  intros S B. eapply post_also; [apply (fdec_reset_never_panics d src S)|]. intros [[d' rest] evs] H NP.
  destruct (fdec_reset_ok _ _ _ _ _ H) as (h & n & w & sc & ud & Ef & _ & -> & _).
  destruct (frame_front_ok _ _ _ _ _ _ Ef) as (_ & _ & _ & ->).
  split; [exact NP|]. split; [apply bytes_ok_skipn, B|]. split; [unfold drop_z; rewrite skipn_length; lia|reflexivity].
Qed.

Lemma decode_all_outer_ok fuel : forall d input room w, (length input < fuel)%nat -> dec_sound d -> bytes_ok input = true -> 0 <= room ->
  post (decode_all_outer fuel d input room w) (fun '(d', out) => dec_sound d').
Proof.
  induction fuel as [|f IH]; intros d input room w Hf Sd B Hr; [lia|]. cbn [decode_all_outer].
  destruct input as [|x t] eqn:Ei; [exact Sd|]. rewrite <- Ei in *.
  destruct (frame_front input (fd_max_window d)) as [r|[m len]] eqn:Ef.
  - eapply post_bind; [apply fdec_reset_post; assumption|]. intros [[d1 in1] evs] (S1 & B1 & L1 & _).
    eapply post_bind; [apply (decode_all_inner_ok (S (S (length in1)))); [lia|exact S1|exact B1|exact Hr]|].
    intros [[[d2 in2] room2] w2] (S2 & B2 & L2 & R2). apply IH; [lia|exact S2|exact B2|exact R2].
  - pose proof (skip_front_len _ _ _ _ Ef) as L8.
    destruct (zlen (drop_z 8 input) <? len); [exact I|].
    apply IH; [|exact Sd|repeat apply bytes_ok_skipn; exact B|exact Hr].
    unfold drop_z. rewrite !skipn_length. change (Z.to_nat 8) with 8%nat. lia.
Qed.

Theorem fdec_decode_all_never_panics d input cap : dec_sound d -> bytes_ok input = true -> 0 <= cap ->
  match fdec_decode_all d input cap with
  | ROk (d', out) => dec_sound d'
  | RErr _ => True
  | RPanic _ => False
  end.
Proof. intros Sd B Hc. apply decode_all_outer_ok; [lia|exact Sd|exact B|exact Hc]. Qed.

Lemma stream_fill_ok fuel : forall d src want, (length src < fuel)%nat -> dec_sound d -> bytes_ok src = true ->
  post (stream_fill fuel d src want) (fun '(d', src') => dec_sound d' /\ bytes_ok src' = true).
Proof.
  induction fuel as [|f IH]; intros d src want Hf Sd B; [lia|]. cbn [stream_fill].
  destruct (_ && _); [|split; assumption].
  eapply post_bind; [apply fdec_decode_blocks_post; assumption|]. intros [[d1 s1] fin] (S1 & B1 & L1 & _).
  apply IH; [lia|exact S1|exact B1].
Qed.

Theorem stream_read_never_panics d src buf_len : dec_sound d -> bytes_ok src = true -> 0 <= buf_len ->
  match stream_read d src buf_len with
  | ROk (d', src', out) => dec_sound d' /\ bytes_ok src' = true /\ zlen out <= buf_len
  | RErr _ => True
  | RPanic _ => False
  end.
Proof.
  intros Sd B Hn. unfold stream_read. destruct (_ && _); [split; [exact Sd|]; split; [exact B|unfold zlen; cbn; lia]|].
  eapply post_bind; [apply (stream_fill_ok (S (S (length src)))); [lia|exact Sd|exact B]|]. intros [d1 s1] (S1 & B1).
  destruct (fdec_read d1 buf_len) as [out d2] eqn:Er.
  destruct (read_step _ _ _ _ S1 Hn Er) as (S2 & Lo & _). split; [exact S2|]. split; [exact B1|exact Lo].
Qed.

Theorem fdec_collect_sound d : dec_sound d -> dec_sound (snd (fdec_collect d)).
Proof.
  intros Sd. pose proof (proj1 (proj2 (drain_paths_keep_dicts d))) as Ed. pose proof Sd as (HD & HS).
  destruct (fdec_collect d) as [[out|] d'] eqn:E; cbn [snd] in *.
  - destruct (fd_state d) as [s|] eqn:Es; [|unfold fdec_collect in E; rewrite Es in E; discriminate].
    destruct (collect_spec d s out d' Es (proj1 HS) E) as (s' & Es' & Dr & _).
    exact (drained_dec_sound d d' s s' out Sd Ed Es Es' Dr).
  - (* nothing to drain: the decoder is returned as it is *)
    replace d' with d; [exact Sd|]. unfold fdec_collect in E. destruct (fd_state d) as [s|]; [|congruence].
    destruct (st_is_finished s); [destruct (db_drain_all _); discriminate|].
    destruct (db_can_drain_to_window _); [destruct (db_drain_amount _ _); discriminate|congruence].
Qed.

Theorem fdec_collect_to_writer_sound St (sstep : St -> Z -> sink_resp * St) d split st :
  dec_sound d -> (forall s, fd_state d = Some s -> 0 <= db_window (st_buf s)) ->
  let '(out, d', ok, st') := fdec_collect_to_writer sstep d split st in dec_sound d'.
Proof.
  intros Sd Hw. pose proof (proj2 (proj2 (drain_paths_keep_dicts d)) St sstep split st) as Ed. pose proof Sd as (HD & HS).
  destruct (fdec_collect_to_writer sstep d split st) as [[[out d'] ok] st'] eqn:E. cbn [fst snd] in Ed.
  destruct (fd_state d) as [s|] eqn:Es.
  - destruct (collect_to_writer_spec St sstep d s split st out d' ok st' Es (proj1 HS) (Hw s eq_refl) E) as (s' & Es' & Dr & _).
    exact (drained_dec_sound d d' s s' out Sd Ed Es Es' Dr).
  - unfold fdec_collect_to_writer in E. rewrite Es in E. injection E as _ <- _ _. exact Sd.
Qed.

Lemma dft_loop_ok fuel : forall s src, (length src < fuel)%nat -> state_sound s -> bytes_ok src = true ->
  post (dft_loop fuel s src) (fun '(s', rest) => state_sound s').
Proof.
  induction fuel as [|f IH]; intros s src Hf Sd B; [lia|]. cbn [dft_loop].
  destruct (zlen src <? 3); [exact Sd|].
  eapply post_bind; [apply read_block_header_src_post; exact B|].
  intros [[[[last ty] dsize] csize] src1] (Hd & Hc & Hty & Hlen & B1).
  destruct (zlen src1 <? csize); [exact Sd|]. cbn [fr_scratch set_scratch].
  eapply post_bind; [apply (decode_block_content_never_panics ty dsize csize (fr_scratch s) src1 Sd B1 Hty); lia|].
  intros [[sc n] src2] (S' & B2 & L2). cbv beta iota zeta.
  destruct last.
  - destruct (checksum_flag _); [destruct (4 <=? zlen src2)|]; exact S'.
  - apply IH; [lia|exact S'|exact B2].
Qed.

Theorem fdec_decode_from_to_never_panics d source target_len : dec_sound d -> bytes_ok source = true -> 0 <= target_len ->
  match fdec_decode_from_to d source target_len with
  | ROk (d', consumed, out) => dec_sound d'
  | RErr _ => True
  | RPanic _ => False
  end.
Proof.
  intros Sd B Hn. unfold fdec_decode_from_to. cbv zeta.
  (* the first part leaves a sound decoder that has a frame state, so the "Bug in library" arms are dead *)
  apply post_bind with (P := fun '(d1, early) => dec_sound d1 /\ is_some (fd_state d1) = true).
  - destruct (negb (fdec_is_finished d) || negb (is_some (fd_state d))) eqn:Ec.
    + apply post_bind with (P := fun '(d0, src) => dec_sound d0 /\ is_some (fd_state d0) = true /\ bytes_ok src = true).
      * destruct (fd_state d) as [s|] eqn:Es; [split; [exact Sd|]; split; [rewrite Es; reflexivity|exact B]|].
        eapply post_bind; [apply fdec_reset_post; assumption|]. intros [[d0 rest] evs] (S0 & B0 & _ & I0).
        split; [exact S0|]. split; [exact I0|exact B0].
      * intros [d0 src] (S0 & I0 & B0). pose proof S0 as (_ & HS). destruct (fd_state d0) as [s|] eqn:Es0; [|discriminate].
        destruct (_ && _).
        -- destruct (4 <=? zlen src); [split; [exact (dec_sound_with_state d0 _ S0 HS)|reflexivity]|split; [exact S0|rewrite Es0; reflexivity]].
        -- eapply post_bind; [apply (dft_loop_ok (S (S (length src))) s src); [lia|exact HS|exact B0]|]. intros [s' r] DL.
           split; [exact (dec_sound_with_state d0 s' S0 DL)|reflexivity].
    + split; [exact Sd|]. apply orb_false_iff in Ec as [_ E2]. destruct (is_some (fd_state d)); [reflexivity|discriminate].
  - intros [d1 early] (S1 & I1). destruct early as [[r w]|]; [exact S1|].
    destruct (fdec_read d1 target_len) as [out d2] eqn:Er. destruct (read_step _ _ _ _ S1 Hn Er) as (S2 & _ & I2).
    destruct (fd_state d2) as [s|] eqn:Es2; [exact S2|]. rewrite I1 in I2. discriminate.
Qed.

Inductive api_op :=
| OpAddDict (raw : list Z) | OpForceDict (id : Z) | OpSetMaxWindow (m : Z)
| OpReset (src : list Z) | OpDecodeBlocks (src : list Z) (strat : strategy)
| OpDecodeAll (input : list Z) (cap : Z) | OpDecodeFromTo (src : list Z) (n : Z)
| OpStreamRead (src : list Z) (n : Z) | OpRead (n : Z) | OpCollect.

(** arguments are byte strings and non-negative lengths (what the Rust types allow) *)
Definition call_ok (op : api_op) : Prop :=
  match op with
  | OpAddDict raw => bytes_ok raw = true
  | OpReset src | OpDecodeBlocks src _ => bytes_ok src = true
  | OpDecodeAll src n | OpDecodeFromTo src n | OpStreamRead src n => bytes_ok src = true /\ 0 <= n
  | OpRead n => 0 <= n
  | OpForceDict _ | OpSetMaxWindow _ | OpCollect => True
  end.

Definition api_step (d : fdec) (op : api_op) : res fdec :=
  match op with
  | OpAddDict raw => let* dd := decode_dict raw in ROk (fdec_add_dict d dd)
  | OpForceDict id => fdec_force_dict d id
  | OpSetMaxWindow m => ROk (fdec_set_max_window d m)
  | OpReset src => let* (d', _, _) := fdec_reset d src in ROk d'
  | OpDecodeBlocks src strat => let* (d', _, _) := fdec_decode_blocks d src strat in ROk d'
  | OpDecodeAll input cap => let* (d', _) := fdec_decode_all d input cap in ROk d'
  | OpDecodeFromTo src n => let* (d', _, _) := fdec_decode_from_to d src n in ROk d'
  | OpStreamRead src n => let* (d', _, _) := stream_read d src n in ROk d'
  | OpRead n => ROk (snd (fdec_read d n))
  | OpCollect => ROk (snd (fdec_collect d))
  end.

(** a call that fails leaves the caller with the decoder it had (the driver of the correspondence runs does the same) *)
Fixpoint api_run (d : fdec) (ops : list api_op) : res fdec :=
  match ops with
  | [] => ROk d
  | op :: t => match api_step d op with
               | ROk d' => api_run d' t
               | RErr _ => api_run d t
               | RPanic e => RPanic e
               end
  end.

Lemma api_step_sound d op : dec_sound d -> call_ok op -> post (api_step d op) dec_sound.
Proof.
  intros Sd Ho. destruct op as [raw|id|m|src|src strat|input cap|src n|src n|n|]; cbn [api_step call_ok] in *.
  - eapply post_bind; [apply (decode_dict_never_panics raw Ho)|]. intros dd Hdd. apply fdec_add_dict_sound; assumption.
  - apply fdec_force_dict_sound. exact Sd.
  - destruct Sd as (A & B). split; assumption.
  - eapply post_bind; [apply (fdec_reset_never_panics d src Sd)|]. intros [[d' r] e] H. exact H.
  - eapply post_bind; [apply (fdec_decode_blocks_never_panics d src strat Sd Ho)|]. intros [[d' r] f] H. exact H.
  - destruct Ho as (B & Hn). eapply post_bind; [apply (fdec_decode_all_never_panics d input cap Sd B Hn)|]. intros [d' o] H. exact H.
  - destruct Ho as (B & Hn). eapply post_bind; [apply (fdec_decode_from_to_never_panics d src n Sd B Hn)|]. intros [[d' c] o] H. exact H.
  - destruct Ho as (B & Hn). eapply post_bind; [apply (stream_read_never_panics d src n Sd B Hn)|]. intros [[d' c] o] H. exact (proj1 H).
  - destruct (fdec_read d n) as [out d'] eqn:E. exact (proj1 (read_step d n out d' Sd Ho E)).
  - apply (fdec_collect_sound d Sd).
Qed.

Theorem api_run_never_panics ops : forall d, dec_sound d -> Forall call_ok ops -> post (api_run d ops) dec_sound.
Proof.
  induction ops as [|op t IH]; intros d Sd Ho; cbn [api_run]; [exact Sd|].
  inversion Ho as [|? ? Hop Ht]; subst. pose proof (api_step_sound d op Sd Hop) as ST.
  destruct (api_step d op) as [d'|e|e]; [apply IH; assumption|apply IH; assumption|contradiction].
Qed.

Corollary no_history_panics ops : Forall call_ok ops -> no_panic (api_run fdec_new ops).
Proof. intros Ho. eapply post_mono; [apply (api_run_never_panics ops fdec_new fdec_new_sound Ho)|]. trivial. Qed.
