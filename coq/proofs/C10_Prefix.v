(** C10: a strict prefix of a frame that decodes completely never decodes completely.
    Method: every reader of the decoder model is stable under extension of the source (what it returns for [src] it
    returns for [src ++ t], with [t] appended to the unread rest; more fuel changes nothing); a prefix that finished
    would therefore finish the whole frame with unread bytes left. *)
Require Import Zrs.lib.RsPrelude Zrs.proofs.ModelFacts Zrs.lib.ListFacts Zrs.gen.Generated Zrs.model.Headers Zrs.model.FseDec Zrs.model.BlockDec Zrs.model.FrameDec.
Require Import Zrs.proofs.C07_Reuse Zrs.proofs.C11_Reset.

Lemma read_exact_ext n src a r t : read_exact n src = Some (a, r) -> read_exact n (src ++ t) = Some (a, r ++ t).
Proof.
  unfold read_exact, zlen, take_z, drop_z. rewrite app_length.
  destruct (Z.ltb_spec (Z.of_nat (length src)) n) as [|H]; [discriminate|]. intros [= <- <-].
  destruct (Z.ltb_spec (Z.of_nat (length src + length t)) n) as [|_]; [lia|].
  destruct (split_app_le (Z.to_nat n) src t) as [-> ->]; [lia|reflexivity].
Qed.

Lemma read_block_header_src_ext src x r t : read_block_header_src src = ROk (x, r) ->
  read_block_header_src (src ++ t) = ROk (x, r ++ t).
Proof.
  unfold read_block_header_src. destruct (read_exact 3 src) as [[hb rest]|] eqn:E; [|discriminate].
  rewrite (read_exact_ext _ _ _ _ t E).
  destruct (read_block_header (nth_z hb 0) (nth_z hb 1) (nth_z hb 2)) as [[[[l ty] d] c]|e|e]; cbn [rbind]; try discriminate.
  intros [= <- <-]. reflexivity.
Qed.

Lemma decode_block_content_ext ty d c sc src sc' nb rest t :
  decode_block_content ty d c sc src = ROk (sc', nb, rest) ->
  decode_block_content ty d c sc (src ++ t) = ROk (sc', nb, rest ++ t).
Proof.
  unfold decode_block_content.
  destruct (ty =? 1); [|destruct (ty =? 0); [|destruct (ty =? 2); [|discriminate]]];
    (destruct (read_exact _ src) as [[b r]|] eqn:E; [rewrite (read_exact_ext _ _ _ _ t E)|discriminate]).
  3: destruct (decompress_block c sc b) as [x|e|e]; cbn [rbind]; try discriminate.
  all: intros [= <- <- <-]; reflexivity.
Qed.

(** the block loop: what a run returns it still returns when bytes are appended to the source (they stay unread) and
    fuel is added *)
Lemma loop_stable fuel : forall s src strat lb bb s' rest t k,
  decode_blocks_loop fuel s src strat lb bb = ROk (s', rest) ->
  decode_blocks_loop (fuel + k) s (src ++ t) strat lb bb = ROk (s', rest ++ t).
Proof.
  induction fuel as [|f IH]; intros s src strat lb bb s' rest t k H; [discriminate|].
  cbn [Nat.add decode_blocks_loop] in *.
  destruct (read_block_header_src src) as [[[[[last ty] d] c] r1]|e|e] eqn:Eh; cbn [rbind] in H; try discriminate.
  rewrite (read_block_header_src_ext _ _ _ t Eh). cbn [rbind].
  destruct (decode_block_content ty d c _ r1) as [[[sc nb] r2]|e|e] eqn:Ec; cbn [rbind] in H; try discriminate.
  rewrite (decode_block_content_ext _ _ _ _ _ _ _ _ t Ec). cbn [rbind].
  destruct last.
  - destruct (checksum_flag _).
    + destruct (read_exact 4 r2) as [[ck r3]|] eqn:Ek; [|discriminate]. rewrite (read_exact_ext _ _ _ _ t Ek).
      injection H as <- <-. reflexivity.
    + injection H as <- <-. reflexivity.
  - destruct (match strat with SAll => false | _ => _ end).
    + injection H as <- <-. reflexivity.
    + apply IH. exact H.
Qed.

Lemma loop_all_finished fuel : forall s src lb bb s' rest,
  decode_blocks_loop fuel s src SAll lb bb = ROk (s', rest) -> fr_finished s' = true.
Proof.
  induction fuel as [|f IH]; intros s src lb bb s' rest H; [discriminate|]. cbn [decode_blocks_loop] in H.
  destruct (read_block_header_src src) as [[[[[last ty] d] c] r1]|e|e]; cbn [rbind] in H; try discriminate.
  destruct (decode_block_content ty d c _ r1) as [[[sc nb] r2]|e|e]; cbn [rbind] in H; try discriminate.
  destruct last; [|exact (IH _ _ _ _ _ _ H)].
  destruct (checksum_flag _); [destruct (read_exact 4 r2) as [[ck r3]|]; [|discriminate]|]; injection H as <- _; reflexivity.
Qed.

Lemma loop_ext fuel s src lb bb s' rest t :
  decode_blocks_loop fuel s src SAll lb bb = ROk (s', rest) ->
  decode_blocks_loop fuel s (src ++ t) SAll lb bb = ROk (s', rest ++ t) /\ fr_finished s' = true.
Proof.
  intros H. split; [|exact (loop_all_finished _ _ _ _ _ _ _ H)].
  rewrite <- (Nat.add_0_r fuel) at 1. apply loop_stable. exact H.
Qed.

Lemma decode_blocks_ext d src strat d' rest fin t :
  fdec_decode_blocks d src strat = ROk (d', rest, fin) -> fdec_decode_blocks d (src ++ t) strat = ROk (d', rest ++ t, fin).
Proof.
  unfold fdec_decode_blocks. destruct (fd_state d) as [s|]; [|discriminate].
  destruct (decode_blocks_loop _ s src strat _ _) as [[s' r]|e|e] eqn:El; cbn [rbind]; try discriminate.
  intros [= <- <- <-]. rewrite app_length. change (S (S (length src + length t))) with (S (S (length src)) + length t)%nat.
  rewrite (loop_stable _ _ _ _ _ _ _ _ t (length t) El). reflexivity.
Qed.

(** the frame header reader is stable under extension as well: it has read all it looks at *)
Lemma read_frame_header_ext src h n t : read_frame_header src = FhOk h n -> read_frame_header (src ++ t) = FhOk h n.
Proof.
  intros H. pose proof (read_frame_header_reads src) as R. rewrite H in R. destruct R as (hd & rest & -> & _ & _ & _ & Ht).
  rewrite <- app_assoc. apply Ht.
Qed.

Lemma frame_front_ext src mw h n w rest t :
  frame_front src mw = inl (ROk (h, n, w, rest)) -> frame_front (src ++ t) mw = inl (ROk (h, n, w, rest ++ t)).
Proof.
  unfold frame_front. destruct (read_frame_header src) as [h0 n0| | |] eqn:E; try discriminate.
  rewrite (read_frame_header_ext _ _ _ t E).
  destruct (read_frame_header_consumed _ _ _ E) as (hd & rs & Es & Ln & Hn & _).
  destruct (fh_window_size h0) as [w0|e|e]; cbn [rbind]; try discriminate.
  destruct (check_window_size w0 mw) as [u|e|e]; cbn [rbind]; try discriminate.
  intros [= <- <- <- <-]. rewrite drop_z_app; [reflexivity|]. rewrite Es, app_length. lia.
Qed.

Lemma skip_front_ext src mw m len t : frame_front src mw = inr (m, len) -> frame_front (src ++ t) mw = inr (m, len).
Proof.
  unfold frame_front. pose proof (read_frame_header_reads src) as R.
  destruct (read_frame_header src); try discriminate. destruct R as (hd & rest & -> & _ & Ht).
  rewrite <- app_assoc, Ht. intros H. exact H.
Qed.

Lemma fdec_reset_ext d src d1 rest ev t :
  fdec_reset d src = ROk (d1, rest, ev) -> fdec_reset d (src ++ t) = ROk (d1, rest ++ t, ev).
Proof.
  intros H. destruct (fdec_reset_ok _ _ _ _ _ H) as (h & n & w & sc & ud & Ef & El & -> & ->).
  rewrite fdec_reset_eq, (frame_front_ext _ _ _ _ _ _ t Ef). cbn [rbind]. rewrite El. reflexivity.
Qed.

(** the whole decoding of a frame: a strict prefix of a frame that a decoder decodes completely (nothing left over)
    is never decoded to a normal return by the same decoder, at whatever point it was cut *)
Theorem frame_prefix_never_finishes d frame d1 rest ev d2 :
  fdec_reset d frame = ROk (d1, rest, ev) -> fdec_decode_blocks d1 rest SAll = ROk (d2, [], true) ->
  forall p t, frame = p ++ t -> t <> [] ->
  forall d1' rest' ev', fdec_reset d p = ROk (d1', rest', ev') ->
  forall x, fdec_decode_blocks d1' rest' SAll <> ROk x.
Proof.
  intros Hr Hd p t -> Ht d1' rest' ev' Hr' [[d2' r'] fin'] Hd'.
  rewrite (fdec_reset_ext _ _ _ _ _ t Hr') in Hr. injection Hr as <- <- <-.
  rewrite (decode_blocks_ext _ _ _ _ _ _ t Hd') in Hd. injection Hd as _ E _.
  apply app_eq_nil in E. exact (Ht (proj2 E)).
Qed.
