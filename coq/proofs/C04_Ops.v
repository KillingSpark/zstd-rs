(** C04: every operation of the ring buffer keeps the invariant, never faults and refines the byte queue. *)
From Coq Require Import Bool Lia ZArith List.
Import ListNotations.
From Coq Require Import ZifyBool.
Require Import Zrs.lib.ListFacts Zrs.model.RingBuffer Zrs.proofs.C04_Basics Zrs.proofs.C04_Append.

Lemma npot_ge x : x <= npot x.
Proof.
  unfold npot. destruct (x <=? 1) eqn:E; [lia|].
  pose proof (Nat.log2_up_spec x ltac:(lia)). lia.
Qed.

Lemma data_lens_spec s l1 l2 : head s < cap s -> tail s < cap s -> data_lens s = (l1, l2) ->
  len s = l1 + l2 /\ head s + l1 <= cap s /\
  (forall i, i < l1 -> idx s i = head s + i) /\ (forall i, i < l2 -> idx s (l1 + i) = i).
Proof.
  intros Hh Ht E. unfold len. rewrite E. unfold data_lens in E. unfold idx.
  destruct (head s <=? tail s) eqn:C; injection E as <- <-.
  - split; [reflexivity|]. split; [lia|]. split; [|lia].
    intros i Hi. replace (head s + i <? cap s) with true by lia. reflexivity.
  - split; [reflexivity|]. split; [lia|]. split; intros i Hi.
    + replace (head s + i <? cap s) with true by lia. reflexivity.
    + replace (head s + (cap s - head s + i) <? cap s) with false by lia. lia.
Qed.

(** the linearising copy into a larger allocation *)
Lemma reserve_amortized_ok s x : Inv s ->
  exists s', reserve_amortized s x = Done s' /\ Inv s' /\ abs s' = abs s /\ len s' = len s /\ cap s + x < cap s'.
Proof.
  intros HI. unfold reserve_amortized.
  set (nc := Nat.max (npot (cap s)) (npot (cap s + x)) + 1).
  assert (cap s + x < nc) as Hnc by (pose proof (npot_ge (cap s + x)); lia). clearbody nc.
  destruct (0 <? cap s) eqn:Ec.
  - assert (0 < cap s) as Hc by lia. destruct (inv_bounds s HI Hc) as [Hh Ht]. pose proof (len_lt s Ht) as LL.
    destruct (data_lens s) as [l1 l2] eqn:DL. destruct (data_lens_spec s l1 l2 Hh Ht DL) as (Hl & B1 & D1 & D2).
    replace (all_init (mem s) (head s) l1) with true.
    2:{ symmetry. apply all_init_spec. intros i Hi. rewrite <- D1, inv_cell by (assumption || lia). eauto. }
    replace (all_init (mem s) 0 l2) with true.
    2:{ symmetry. apply all_init_spec. intros i Hi. cbn [Nat.add]. rewrite <- (D2 i), inv_cell by (assumption || lia). eauto. }
    replace ((head s + l1 <=? cap s) && (l2 <=? cap s) && true && true && (l1 + l2 <=? nc)) with true by lia.
    eexists. split; [reflexivity|]. set (s' := mkrb nc 0 (l1 + l2) _).
    assert (len s' = len s) as Hlen by (rewrite len_eq; cbn [head tail cap s' Nat.leb]; lia).
    destruct (inv_abs_intro s' (abs s)) as [I' A']; [cbn [head cap s']; lia|cbn [tail cap s']; lia|rewrite abs_length; auto| |auto].
    intros i Hi. rewrite Hlen in Hi. rewrite <- inv_cell by assumption.
    rewrite idx_lo by (cbn [head cap s']; lia). cbn [mem head s' Nat.add].
    destruct (i <? l1) eqn:E1; [rewrite D1 by lia; reflexivity|].
    replace (i <? l1 + l2) with true by lia. rewrite <- (D2 (i - l1)) by lia. f_equal. f_equal. lia.
  - assert (cap s = 0) as Z0 by lia. destruct (inv_cap0 s HI Z0) as [L0 _].
    destruct HI as (HZ & _). destruct (HZ Z0) as [-> ->].
    eexists. split; [reflexivity|]. set (s' := mkrb nc 0 0 _).
    destruct (inv_abs_intro s' []) as [I' A']; [cbn [head cap s']; lia|cbn [tail cap s']; lia|reflexivity|cbn; lia|].
    unfold abs at 2. rewrite L0. auto.
Qed.

Lemma reserve_ok s amount : Inv s ->
  exists s', reserve s amount = Done s' /\ Inv s' /\ abs s' = abs s /\ len s' = len s /\
             amount <= free s' /\ (0 < amount -> 0 < cap s') /\ cap s <= cap s'.
Proof.
  intros HI. unfold reserve.
  assert (len s + free s <= cap s) as LF.
  { destruct (Nat.eq_dec (cap s) 0) as [Z0|NZ]; [destruct (inv_cap0 s HI Z0)|pose proof (len_free s HI)]; lia. }
  destruct (amount <=? free s) eqn:E.
  - exists s. split; [reflexivity|]. split; [exact HI|]. split; [reflexivity|]. split; [reflexivity|]. lia.
  - destruct (reserve_amortized_ok s (amount - free s) HI) as (s' & E' & I' & A' & L' & C').
    exists s'. split; [exact E'|]. split; [exact I'|]. split; [exact A'|]. split; [exact L'|].
    pose proof (len_free s' I'). lia.
Qed.

(** where the two free slices lie: the first starts at the tail; a write longer than the first slice continues
    at cell 0 of the allocation *)
Lemma free_lens_spec s th a : Inv s -> 0 < cap s -> free_lens s = (th, a) ->
  tail s + a <= cap s /\ (a < free s -> idx s (len s + a) = 0).
Proof.
  intros HI Hc. destruct (inv_bounds s HI Hc) as [Hh Ht]. unfold free_lens. rewrite free_eq, len_eq.
  destruct (tail s <? head s) eqn:E; intros [= <- <-]; (split; [lia|]); intros Ha; [lia|].
  replace (head s <=? tail s) with true by lia. rewrite idx_hi; lia.
Qed.

(** what every growing operation starts with *)
Lemma reserve_for s n : Inv s -> 0 < n ->
  exists s1 th a, reserve s n = Done s1 /\ free_lens s1 = (th, a) /\ Inv s1 /\ 0 < cap s1 /\ n <= free s1 /\
                  abs s1 = abs s /\ len s1 = len s /\ tail s1 + a <= cap s1 /\ n < cap s1.
Proof.
  intros HI Hn. destruct (reserve_ok s n HI) as (s1 & E1 & I1 & A1 & L1 & F1 & C1 & _). specialize (C1 Hn).
  destruct (free_lens s1) as [th a] eqn:FL. destruct (free_lens_spec s1 th a I1 C1 FL) as [Q _].
  pose proof (len_free s1 I1 C1). exists s1, th, a. split; [exact E1|]. split; [exact FL|]. repeat (split; [assumption|]). lia.
Qed.

(** growing operations write at most two parts: after the tail, then from the start of the allocation *)
Section TwoParts.
  Variables (s : rb) (n th a : nat) (m1 m2 : nat -> option Z).
  Hypotheses (HI : Inv s) (Hc : 0 < cap s) (Hn : n <= free s) (FL : free_lens s = (th, a)).
  Let f1 := Nat.min n a.

  Lemma two_parts k1 v1 k2 v2 :
    stored (mem s) m1 (tail s) f1 k1 v1 -> k1 <= f1 -> stored m1 m2 0 (n - f1) k2 v2 -> k2 <= n - f1 ->
    (forall i, i < len s -> m2 (idx s i) = mem s (idx s i)) /\
    (forall j, j < k1 -> m2 (idx s (len s + j)) = v1 j) /\ (forall j, j < k2 -> m2 (idx s (len s + f1 + j)) = v2 j).
  Proof.
    intros S1 Hk1 S2 Hk2.
    pose proof (len_free s HI Hc) as LF. destruct (inv_bounds s HI Hc) as [Hh Ht].
    destruct (free_lens_spec s th a HI Hc FL) as [Q1 Q2].
    edestruct (stored_idx s (len s) (tail s) f1) as [A1 B1]; [| | |exact S1|exact Hk1|]; try lia.
    { intros _. symmetry. apply idx_len; assumption. }
    edestruct (stored_idx s (len s + f1) 0 (n - f1)) as [A2 B2]; [| | |exact S2|exact Hk2|]; try lia.
    { intros Hp. replace f1 with a by lia. symmetry. apply Q2. lia. }
    split; [|split; [|exact A2]].
    - intros i Hi. rewrite B2 by lia. apply B1; lia.
    - intros j Hj. rewrite B2 by lia. apply A1. exact Hj.
  Qed.

  (** the tail is not advanced: only dead cells changed *)
  Lemma two_parts_frame k1 v1 k2 v2 :
    stored (mem s) m1 (tail s) f1 k1 v1 -> k1 <= f1 -> stored m1 m2 0 (n - f1) k2 v2 -> k2 <= n - f1 ->
    let s' := mkrb (cap s) (head s) (tail s) m2 in Inv s' /\ abs s' = abs s /\ len s' = len s.
  Proof.
    intros S1 Hk1 S2 Hk2 s'. destruct (two_parts _ _ _ _ S1 Hk1 S2 Hk2) as [K _].
    destruct (inv_bounds s HI Hc) as [Hh Ht].
    destruct (inv_abs_intro s' (abs s) Hh Ht (abs_length s)) as [I' A']; [|auto].
    intros i Hi. change (m2 (idx s i) = Some (nth i (abs s) 0%Z)). rewrite K by exact Hi. apply inv_cell; assumption.
  Qed.

  Lemma two_part_lemma data : length data = n ->
    stored (mem s) m1 (tail s) f1 f1 (fun j => Some (nth j data 0%Z)) ->
    stored m1 m2 0 (n - f1) (n - f1) (fun j => Some (nth (f1 + j) data 0%Z)) ->
    exists s', advance_tail s m2 n = Done s' /\ Inv s' /\ len s' = len s + n /\ abs s' = abs s ++ data.
  Proof.
    intros Hd S1 S2. destruct (two_parts _ _ _ _ S1 (le_n _) S2 (le_n _)) as (K & A1 & A2).
    unfold advance_tail. replace (cap s =? 0) with false by lia. eexists. split; [reflexivity|].
    apply append_lemma; try assumption.
    intros i Hi. destruct (Nat.lt_ge_cases i f1) as [L|L]; [apply A1; exact L|].
    replace (len s + i) with (len s + f1 + (i - f1)) by lia. rewrite A2 by lia. do 2 f_equal. lia.
  Qed.
End TwoParts.

Theorem extend_ok s data : Inv s ->
  exists s', extend s data = Done s' /\ Inv s' /\ len s' = len s + length data /\ abs s' = abs s ++ data.
Proof.
  intros HI. unfold extend. destruct data as [|x l].
  - exists s. cbn [length]. rewrite app_nil_r. split; [reflexivity|]. split; [exact HI|]. split; [lia|reflexivity].
  - cbv iota. set (data := x :: l). set (n := length data).
    destruct (reserve_for s n HI) as (s1 & th & a & E1 & FL & I1 & C1 & F1 & A1 & L1 & Q1 & Q2); [cbn; lia|].
    rewrite E1. cbn [bind]. rewrite FL, <- A1, <- L1. set (f1 := Nat.min n a).
    destruct (write_region_ok (mem s1) (cap s1) (tail s1) (firstn f1 data) f1 (fun j => Some (nth j data 0%Z)))
      as (m1 & W1 & S1); [rewrite firstn_length; lia|lia| |].
    { intros j Hj. rewrite nth_firstn_lt by exact Hj. reflexivity. }
    rewrite W1.
    assert (exists m2, (if 0 <? n - f1 then write_region m1 (cap s1) 0 (skipn f1 data) else Some m1) = Some m2 /\
                       stored m1 m2 0 (n - f1) (n - f1) (fun j => Some (nth (f1 + j) data 0%Z))) as (m2 & W2 & S2).
    { destruct (0 <? n - f1) eqn:E2.
      - apply write_region_ok; [apply skipn_length|lia|]. intros j Hj. rewrite nth_skipn_add. reflexivity.
      - exists m1. split; [reflexivity|]. replace (n - f1) with 0 by lia. apply stored_nothing. }
    rewrite W2. exact (two_part_lemma s1 n th a m1 m2 I1 C1 F1 FL data eq_refl S1 S2).
Qed.

Theorem fill_ok s b n : Inv s ->
  exists s', extend_and_fill s b n = Done s' /\ Inv s' /\ len s' = len s + n /\ abs s' = abs s ++ repeat b n.
Proof.
  intros HI. unfold extend_and_fill. destruct (n =? 0) eqn:En.
  - assert (n = 0) as -> by lia. exists s. cbn [repeat]. rewrite app_nil_r.
    split; [reflexivity|]. split; [exact HI|]. split; [lia|reflexivity].
  - destruct (reserve_for s n HI) as (s1 & th & a & E1 & FL & I1 & C1 & F1 & A1 & L1 & Q1 & Q2); [lia|].
    rewrite E1. cbn [bind]. rewrite FL, <- A1, <- L1, (Nat.min_comm a n). set (f1 := Nat.min n a).
    destruct (fill_region_ok (mem s1) (cap s1) (tail s1) b f1 (fun j => Some (nth j (repeat b n) 0%Z)))
      as (m1 & W1 & S1); [lia| |].
    { intros j Hj. rewrite nth_repeat_lt by lia. reflexivity. }
    rewrite W1.
    assert (exists m2, (if f1 <? n then fill_region m1 (cap s1) 0 b (n - f1) else Some m1) = Some m2 /\
                       stored m1 m2 0 (n - f1) (n - f1) (fun j => Some (nth (f1 + j) (repeat b n) 0%Z))) as (m2 & W2 & S2).
    { destruct (f1 <? n) eqn:E2.
      - apply fill_region_ok; [lia|]. intros j Hj. rewrite nth_repeat_lt by lia. reflexivity.
      - exists m1. split; [reflexivity|]. replace (n - f1) with 0 by lia. apply stored_nothing. }
    rewrite W2. exact (two_part_lemma s1 n th a m1 m2 I1 C1 F1 FL _ (repeat_length b n) S1 S2).
Qed.

Theorem drop_ok s amount : Inv s -> 0 < cap s ->
  exists s', drop_first_n s amount = Done s' /\ Inv s' /\
             len s' = len s - Nat.min amount (len s) /\ abs s' = skipn (Nat.min amount (len s)) (abs s).
Proof.
  intros HI Hc. unfold drop_first_n. replace (cap s =? 0) with false by lia.
  set (a := Nat.min amount (len s)). assert (a <= len s) as Ha by lia.
  destruct (inv_bounds s HI Hc) as [Hh Ht]. pose proof (len_lt s Ht) as LL.
  eexists. split; [reflexivity|].
  set (s' := mkrb (cap s) ((head s + a) mod cap s) (tail s) (mem s)).
  (* the new head is cell [a] of the old ring, so cell [i] of the new ring is cell [a + i] of the old one *)
  assert (head s' = idx s a) as Hh' by (apply mod_sub; lia).
  assert (head s' < cap s) as Hhb by (rewrite Hh'; apply idx_lt; lia).
  assert (forall i, a + i <= cap s -> idx s' i = idx s (a + i)) as Hidx.
  { intros i Hi. rewrite idx_add by assumption. unfold idx at 1. rewrite Hh'. reflexivity. }
  assert (len s' = len s - a) as Hlen.
  { apply len_unique; [exact Hhb|exact Ht|cbn [cap s']; lia|]. rewrite Hidx by lia.
    replace (a + (len s - a)) with (len s) by lia. exact (idx_len s Hh Ht). }
  destruct (inv_abs_intro s' (skipn a (abs s)) Hhb Ht) as [I' A'].
  - rewrite skipn_length, abs_length. auto.
  - intros i Hi. rewrite Hlen in Hi. rewrite Hidx by lia. rewrite nth_skipn_add. apply (inv_cell s); [exact HI|lia].
  - auto.
Qed.

Lemma clear_ok s : Inv s -> Inv (clear s) /\ abs (clear s) = [] /\ len (clear s) = 0.
Proof.
  intros (HZ & HB & HL). unfold clear. split; [|split].
  - split; [intros; split; reflexivity|]. split; [intros H; cbn [head tail cap] in *; lia|].
    intros i Hi. unfold live in Hi. cbn [head tail cap Nat.leb] in Hi. lia.
  - reflexivity.
  - reflexivity.
Qed.

(** [extend_from_reader]: the reader is an oracle; [read_exact] either fills the slice it is given or fails *)
Theorem reader_ok s n r1 r2 : Inv s ->
  (forall d, r1 = Some d -> n <= length d) -> (forall d, r2 = Some d -> n <= length d) ->
  exists s' ok, extend_from_reader s n r1 r2 = Done (s', ok) /\ Inv s' /\
    (ok = false -> abs s' = abs s /\ len s' = len s) /\
    (ok = true -> exists data, length data = n /\ abs s' = abs s ++ data /\ len s' = len s + n /\
                  (n = 0 \/ exists f1 d1, r1 = Some d1 /\ f1 <= n /\
                     data = firstn f1 d1 ++ match r2 with Some d2 => firstn (n - f1) d2 | None => [] end)).
Proof.
  intros HI R1 R2. unfold extend_from_reader. destruct (n =? 0) eqn:En.
  - assert (n = 0) as -> by lia. exists s, true. split; [reflexivity|]. split; [exact HI|]. split; [discriminate|].
    intros _. exists []. rewrite app_nil_r. split; [reflexivity|]. split; [reflexivity|]. split; [lia|]. left; reflexivity.
  - destruct (reserve_for s n HI) as (s1 & th & a & E1 & FL & I1 & C1 & F1 & A1 & L1 & Q1 & Q2); [lia|].
    rewrite E1. cbn [bind]. rewrite FL, <- A1, <- L1, (Nat.min_comm a n). set (f1 := Nat.min n a).
    pose proof (fun m1 m2 => two_parts_frame s1 n th a m1 m2 I1 C1 F1 FL) as Frame.
    pose proof (fun m1 m2 => two_part_lemma s1 n th a m1 m2 I1 C1 F1 FL) as Grow. fold f1 in Frame, Grow.
    destruct (fill_region_ok (mem s1) (cap s1) (tail s1) 0%Z f1 (fun _ => Some 0%Z)) as (m1 & W1 & S1); [lia|reflexivity|].
    rewrite W1.
    destruct r1 as [d1|].
    2:{ (* the first read_exact failed: only dead cells were zeroed *)
        eexists _, false. split; [reflexivity|].
        destruct (Frame m1 m1 _ _ 0 (fun _ => None) S1 (le_n _) (stored_nothing _ _ _ _) (Nat.le_0_l _)) as (I' & A' & L').
        split; [exact I'|]. split; [auto|discriminate]. }
    specialize (R1 d1 eq_refl).
    set (l2 := match r2 with Some d2 => firstn (n - f1) d2 | None => [] end).
    assert (length (firstn f1 d1) = f1) as Lf by (rewrite firstn_length; lia).
    destruct (write_region_ok m1 (cap s1) (tail s1) (firstn f1 d1) f1 (fun j => Some (nth j (firstn f1 d1 ++ l2) 0%Z)))
      as (m1' & W1' & S1'); [exact Lf|lia| |].
    { intros j Hj. rewrite app_nth1 by lia. reflexivity. }
    rewrite W1'. pose proof (stored_over _ _ _ _ _ _ _ _ _ S1 S1') as S1''.
    (* once both halves are written *)
    assert (forall m2', length l2 = n - f1 ->
              stored m1' m2' 0 (n - f1) (n - f1) (fun j => Some (nth (f1 + j) (firstn f1 d1 ++ l2) 0%Z)) ->
              exists s' ok, bind (advance_tail s1 m2' n) (fun s' => Done (s', true)) = Done (s', ok) /\ Inv s' /\
                (ok = false -> abs s' = abs s1 /\ len s' = len s1) /\
                (ok = true -> exists data, length data = n /\ abs s' = abs s1 ++ data /\ len s' = len s1 + n /\
                   (n = 0 \/ exists f d, Some d1 = Some d /\ f <= n /\
                      data = firstn f d ++ match r2 with Some d2 => firstn (n - f) d2 | None => [] end))) as Read.
    { intros m2' Ll S2'. destruct (Grow m1' m2' (firstn f1 d1 ++ l2)) as (s' & E' & I' & L' & A'); [rewrite app_length; lia|exact S1''|exact S2'|].
      rewrite E'. exists s', true. split; [reflexivity|]. split; [exact I'|]. split; [discriminate|]. intros _.
      exists (firstn f1 d1 ++ l2). split; [rewrite app_length; lia|]. split; [exact A'|]. split; [exact L'|].
      right. exists f1, d1. split; [reflexivity|]. split; [lia|reflexivity]. }
    destruct (f1 <? n) eqn:E2.
    + destruct (fill_region_ok m1' (cap s1) 0 0%Z (n - f1) (fun _ => Some 0%Z)) as (m2 & W2 & S2); [lia|reflexivity|].
      rewrite W2.
      destruct r2 as [d2|].
      2:{ eexists _, false. split; [reflexivity|].
          destruct (Frame m1' m2 _ _ _ _ S1'' (le_n _) S2 (le_n _)) as (I' & A' & L').
          split; [exact I'|]. split; [auto|discriminate]. }
      specialize (R2 d2 eq_refl).
      assert (length l2 = n - f1) as Lf2 by (unfold l2; rewrite firstn_length; lia).
      destruct (write_region_ok m2 (cap s1) 0 l2 (n - f1) (fun j => Some (nth (f1 + j) (firstn f1 d1 ++ l2) 0%Z)))
        as (m2' & W2' & S2'); [exact Lf2|lia| |].
      { intros j Hj. rewrite app_nth2 by lia. rewrite Lf. do 2 f_equal. lia. }
      unfold l2 in W2' at 1. rewrite W2'. exact (Read m2' Lf2 (stored_over _ _ _ _ _ _ _ _ _ S2 S2')).
    + apply Read; [|replace (n - f1) with 0 by lia; apply stored_nothing].
      unfold l2. destruct r2; [rewrite firstn_length|]; cbn [length]; lia.
Qed.
