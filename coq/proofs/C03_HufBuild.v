(** C03: building a Huffman decoding table from its serialized description never panics, whatever the bytes are
    (weights given directly or FSE-compressed), and what it returns is a complete table. *)
Require Import Zrs.lib.RsPrelude Zrs.lib.ResFacts Zrs.model.BitIO Zrs.model.FseDec Zrs.model.HufDec.
Require Import Zrs.proofs.C03_HufComplete Zrs.proofs.C03_HufStream.
Require Import Zrs.proofs.C03_FseStates Zrs.proofs.C03_FseBuild.
Open Scope Z_scope.

Lemma skip_padding_wf r br : rwf r -> rbr_skip_padding r = Some br -> rwf br.
Proof.
  unfold rbr_skip_padding. generalize 0 10%nat. intros sk fuel. revert r sk.
  induction fuel as [|f IH]; intros r sk W Esk; cbn [skip_padding] in Esk; [discriminate|].
  destruct (get_bits_wf r 1 W ltac:(lia)) as (W' & _).
  destruct (rbr_get_bits r 1) as [v r']. cbn [snd] in W'.
  destruct ((v =? 1) || (8 <? sk + 1)); [|exact (IH _ _ W' Esk)].
  destruct (8 <? sk + 1); [discriminate|]. injection Esk as <-. exact W'.
Qed.

Section Weights.
  Variable ft : fse_table.
  Hypothesis R : fse_range ft.

  Lemma init_in br : rwf br -> exists st br', fse_init_state ft br = ROk (st, br') /\ In st (t_decode ft) /\ rwf br'.
  Proof. destruct R as (A & B & C). apply (init_state_in_table ft A B). Qed.
  Lemma update_in st br : In st (t_decode ft) -> rwf br ->
    exists st' br', fse_update_state ft st br = ROk (st', br') /\ In st' (t_decode ft) /\ rwf br'.
  Proof. destruct R as (A & B & C). apply (update_state_in_table ft A B). intros e He. specialize (C e He). tauto. Qed.
  Lemma sym_nonneg st : In st (t_decode ft) -> 0 <= e_sym st.
  Proof. destruct R as (A & B & C). intros H. specialize (C st H). tauto. Qed.

  (** each round adds two weights, so 128 rounds reach the limit of 255 *)
  Lemma weights_loop_ok fuel : forall s1 s2 br ws n, In s1 (t_decode ft) -> In s2 (t_decode ft) -> rwf br ->
    Forall (fun w => 0 <= w) ws -> n <= 255 -> 257 <= n + 2 * Z.of_nat fuel ->
    post (fse_weights_loop fuel ft s1 s2 br ws n) (Forall (fun w => 0 <= w)).
  Proof.
    induction fuel as [|f IH]; intros s1 s2 br ws n H1 H2 W Hws Hn Hf; [lia|]. cbn [fse_weights_loop].
    destruct (update_in s1 br H1 W) as (s1' & br1 & -> & H1' & W1). cbn [rbind].
    pose proof (sym_nonneg s1 H1) as P1. pose proof (sym_nonneg s2 H2) as P2. pose proof (sym_nonneg s1' H1') as P1'.
    destruct (rbr_bits_remaining br1 <=? -1); [repeat constructor; assumption|].
    destruct (update_in s2 br1 H2 W1) as (s2' & br2 & -> & H2' & W2). cbn [rbind].
    destruct (rbr_bits_remaining br2 <=? -1); [repeat constructor; assumption|].
    destruct (Z.ltb_spec 255 (n + 2)); [exact I|].
    apply IH; [exact H1'|exact H2'|exact W2|repeat constructor; assumption|lia|lia].
  Qed.
End Weights.

Lemma direct_weights_nonneg n : forall idx raw, Forall (fun b => 0 <= b) raw -> Forall (fun w => 0 <= w) (direct_weights n idx raw).
Proof.
  induction n as [|n IH]; intros idx raw Hr; cbn [direct_weights]; constructor; [|apply IH; exact Hr].
  assert (H0 : 0 <= nth_z raw (idx / 2)).
  { unfold nth_z. destruct (nth_in_or_default (Z.to_nat (idx / 2)) raw 0) as [Hin| ->]; [|lia]. rewrite Forall_forall in Hr. apply Hr. exact Hin. }
  destruct (idx mod 2 =? 0); [apply Z.div_pos; lia|apply Z.mod_pos_bound; lia].
Qed.

Theorem read_weights_ok t source : t_max_symbol (ht_fse t) <= 255 -> Forall (fun b => 0 <= b) source ->
  post (read_weights t source) (fun '(ws, ft, bytes) =>
    Forall (fun w => 0 <= w) ws /\ t_max_symbol ft = t_max_symbol (ht_fse t) /\ 0 <= bytes <= Z.of_nat (length source)).
Proof.
  intros G Hsrc. unfold read_weights. destruct source as [|header fse_stream]; [exact I|].
  inversion Hsrc as [|? ? Hh Hrest]; subst. cbn [length].
  destruct (Z.ltb_spec header 128) as [Hlt|Hge].
  - destruct (Z.ltb_spec (Z.of_nat (length fse_stream)) header) as [|Hlen]; [exact I|].
    eapply post_bind; [apply (fse_build_decoder_good (ht_fse t) fse_stream 6 G); lia|]. intros [ft used] (_ & R & G' & Hu).
    destruct (Z.ltb_spec header used); [exact I|]. cbv zeta.
    destruct (_ <? _); [exact I|].
    set (cw := firstn _ _).
    destruct (rbr_skip_padding (rbr_new cw)) as [br|] eqn:Esk; [|exact I].
    pose proof (skip_padding_wf _ _ (rbr_new_wf cw) Esk) as W.
    destruct (init_in ft R br W) as (s1 & br1 & -> & H1 & W1). cbn [rbind].
    destruct (init_in ft R br1 W1) as (s2 & br2 & -> & H2 & W2). cbn [rbind].
    eapply post_bind; [apply (weights_loop_ok ft R); [exact H1|exact H2|exact W2|constructor|lia|lia]|]. intros ws WL.
    split; [apply Forall_rev; exact WL|]. split; [exact G'|lia].
  - cbv zeta.
    destruct (Z.ltb_spec (Z.of_nat (length fse_stream)) (if (header - 127) mod 2 =? 0 then (header - 127) / 2 else (header - 127) / 2 + 1)) as [|Hlen]; [exact I|].
    split; [apply direct_weights_nonneg; exact Hrest|]. split; [reflexivity|].
    destruct (Z.eqb_spec ((header - 127) mod 2) 0); destruct (Z.eqb_spec ((8 + 4 * (header - 127)) mod 8) 0); lia.
Qed.

(** the invariant of the Huffman table held in the decoder's scratch space: unset, or complete *)
Definition huf_complete (t : huf_table) : Prop :=
  1 <= ht_max_bits t /\ ht_len t = 2 ^ ht_max_bits t /\
  forall i, 0 <= i < 2 ^ ht_max_bits t -> 1 <= h_bits (nth_h (ht_decode t) i) <= ht_max_bits t.
Definition huf_good (t : huf_table) : Prop := t_max_symbol (ht_fse t) = 255 /\ (ht_max_bits t = 0 \/ huf_complete t).

Lemma huf_new_good : huf_good huf_new.
Proof. split; [reflexivity|left; reflexivity]. Qed.

Theorem huf_build_decoder_good t source : t_max_symbol (ht_fse t) = 255 -> Forall (fun b => 0 <= b) source ->
  match huf_build_decoder t source with
  | ROk (t', bytes) => huf_complete t' /\ huf_good t' /\ 0 <= bytes <= Z.of_nat (length source)
  | RErr _ => True
  | RPanic _ => False
  end.
Proof.
  intros G Hsrc. unfold huf_build_decoder.
  eapply post_bind; [apply (read_weights_ok t source); [lia|exact Hsrc]|]. intros [[ws ft] bytes] (Hws & Gf & Hb).
  pose proof (build_table_from_weights_never_panics ws Hws) as NP.
  destruct (build_table_from_weights ws) as [[[[[dec M] bits] ranks] idxs]|e|e] eqn:Eb; cbn [rbind]; [|exact I|contradiction].
  destruct (built_huffman_table_complete ws dec M bits ranks idxs Hws Eb) as (Ld & HM & Hbits).
  assert (C : huf_complete {| ht_decode := dec; ht_len := 2 ^ M; ht_weights := ws; ht_max_bits := M; ht_bits := bits;
                               ht_bit_ranks := ranks; ht_rank_indexes := idxs; ht_fse := ft |}).
  { unfold huf_complete. cbn [ht_max_bits ht_len ht_decode]. split; [lia|]. split; [reflexivity|exact Hbits]. }
  split; [exact C|]. split; [split; [cbn [ht_fse]; lia|right; exact C]|exact Hb].
Qed.

Lemma complete_stream_no_panic t stream out check : huf_complete t ->
  post (huf_decode_stream t stream out check) (fun _ => True).
Proof.
  intros (A & B & C). apply (decode_stream_no_panic t (ht_max_bits t) A eq_refl B C).
Qed.
