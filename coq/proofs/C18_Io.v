(** C18: the hand-written I/O layer behaves like the documented contract of std::io (io_read_exact, Take, read_to_end,
    io_write_all), for every script of inner-reader / inner-writer behaviour (short reads, interruptions, failures). *)
Require Import Zrs.lib.RsPrelude Zrs.lib.ListFacts Zrs.model.IoNoStd.
Open Scope nat_scope.

Lemma firstn_nil_inv k (l : list Z) : firstn k l = [] -> k = 0 \/ l = [].
Proof. destruct k, l; auto. discriminate. Qed.

Lemma sr_read_spec r space :
  match sr_read r space with
  | (inl bytes, r') => sr_data r = bytes ++ sr_data r' /\ length bytes <= space /\
                       (bytes = [] -> space = 0 \/ sr_data r = []) /\
                       length (sr_script r') <= length (sr_script r) /\ incl (sr_script r') (sr_script r)
  | (inr e, r') => sr_data r' = sr_data r /\
                   (e = EInterrupted /\ sr_script r = RInterrupted :: sr_script r' \/
                    e = EOther /\ sr_script r = RFail :: sr_script r')
  end.
Proof.
  unfold sr_read. destruct (sr_script r) as [|[n| |] t]; cbn [sr_data sr_script length].
  - split; [symmetry; apply firstn_skipn|]. split; [apply firstn_le_length|]. split; [apply firstn_nil_inv|].
    split; [lia|apply incl_refl].
  - split; [symmetry; apply firstn_skipn|]. split; [rewrite firstn_length; lia|].
    split; [|split; [lia|apply incl_tl, incl_refl]].
    intros E. destruct (firstn_nil_inv _ _ E); [left; lia|right; assumption].
  - split; [reflexivity|left; split; reflexivity].
  - split; [reflexivity|right; split; reflexivity].
Qed.

Theorem read_exact_spec fuel : forall r need got got' err r',
  need + length (sr_script r) < fuel ->
  io_read_exact fuel r need got = ((got', err), r') ->
  exists k, got' = got ++ firstn k (sr_data r) /\ sr_data r' = skipn k (sr_data r) /\ k <= need /\
    match err with
    | None => k = need /\ need <= length (sr_data r)
    | Some EUnexpectedEof => k = length (sr_data r) /\ length (sr_data r) < need
    | Some EOther => In RFail (sr_script r)
    | Some _ => False
    end.
Proof.
  induction fuel as [|f IH]; intros r need got got' err r' Hf H; [lia|].
  destruct need as [|need']; cbn [io_read_exact] in H.
  - injection H as <- <- <-. exists 0. cbn. rewrite app_nil_r. repeat split; lia.
  - pose proof (sr_read_spec r (S need')) as Sp. destruct (sr_read r (S need')) as [[bytes|e] r1].
    + destruct Sp as (Ed & Lb & Hz & Ls & Hin). destruct bytes as [|b0 bt].
      * injection H as <- <- <-. destruct (Hz eq_refl) as [|Hd]; [discriminate|].
        exists 0. rewrite Ed at 2. rewrite Hd. cbn. rewrite app_nil_r. repeat split; lia.
      * destruct (IH r1 (S need' - length (b0 :: bt)) (got ++ b0 :: bt) got' err r') as (k2 & -> & -> & K2 & Herr);
          [cbn [length]; lia|exact H|].
        exists (length (b0 :: bt) + k2). rewrite Ed, firstn_app_2, skipn_app_2, app_length, app_assoc.
        cbn [length] in *. repeat split; try lia.
        destruct err as [[| | |]|]; try exact Herr; try lia. apply Hin. exact Herr.
    + destruct Sp as (Ed & [[-> Es]|[-> Es]]); rewrite Es in *; cbn [length In] in *.
      * destruct (IH r1 (S need') got got' err r') as (k2 & G & R & K2 & Herr); [lia|exact H|].
        exists k2. rewrite <- Ed. repeat split; try assumption.
        destruct err as [[| | |]|]; try exact Herr. right. exact Herr.
      * injection H as <- <- <-. exists 0. cbn [firstn skipn]. rewrite app_nil_r. repeat split; auto. lia.
Qed.

(** with no failing call in the script and enough data, io_read_exact succeeds (and never reports Interrupted) *)
Corollary read_exact_succeeds fuel r need got : need + length (sr_script r) < fuel -> ~ In RFail (sr_script r) ->
  need <= length (sr_data r) ->
  exists r', io_read_exact fuel r need got = ((got ++ firstn need (sr_data r), None), r') /\ sr_data r' = skipn need (sr_data r).
Proof.
  intros Hf Hnf Hd. destruct (io_read_exact fuel r need got) as [[got' err] r'] eqn:E.
  destruct (read_exact_spec fuel r need got got' err r' Hf E) as (k & G & R & K & Herr).
  destruct err as [[| | |]|]; try contradiction; try lia.
  destruct Herr as [-> _]. exists r'. rewrite G. split; [reflexivity|exact R].
Qed.

Theorem take_read_spec t space : (0 <= tk_limit t)%Z ->
  match io_take_read t space with
  | (inl bytes, t') => exists k, k <= space /\ (Z.of_nat k <= tk_limit t)%Z /\ bytes = firstn k (sr_data (tk_inner t)) /\
                                 sr_data (tk_inner t') = skipn k (sr_data (tk_inner t)) /\
                                 (tk_limit t' = tk_limit t - Z.of_nat (length bytes))%Z /\ (0 <= tk_limit t')%Z /\
                                 (bytes = [] -> space = 0 \/ tk_limit t = 0%Z \/ sr_data (tk_inner t) = [])
  | (inr e, t') => tk_limit t' = tk_limit t /\ sr_data (tk_inner t') = sr_data (tk_inner t)
  end.
Proof.
  intros Hl. unfold io_take_read. destruct (Z.eqb_spec (tk_limit t) 0) as [H0|Hn0].
  - exists 0. cbn. repeat split; try lia.
  - pose proof (sr_read_spec (tk_inner t) (Z.to_nat (Z.min (tk_limit t) (Z.of_nat space)))) as Sp.
    destruct (sr_read (tk_inner t) (Z.to_nat (Z.min (tk_limit t) (Z.of_nat space)))) as [[bytes|e] r'].
    + destruct Sp as (Ed & Lb & Hz & _). exists (length bytes). cbn [tk_inner tk_limit].
      rewrite Ed at 1 2. destruct (split_at_length bytes (sr_data r')) as [-> ->].
      repeat split; try lia.
      intros Hb. destruct (Hz Hb) as [Hs|Hd]; [|right; right; exact Hd]. left. lia.
    + destruct Sp as (Ed & _). cbn [tk_inner tk_limit]. split; [reflexivity|exact Ed].
Qed.

(** everything read through a Take, over any sequence of calls, is a prefix of the inner data no longer than the
    limit; without failing / interrupted calls, read_to_end delivers exactly min(limit, available) bytes *)
Theorem take_read_to_end_spec fuel : forall t out out' err t', (0 <= tk_limit t)%Z ->
  io_take_read_to_end fuel t out = ((out', err), t') ->
  exists k, out' = out ++ firstn k (sr_data (tk_inner t)) /\ (Z.of_nat k <= tk_limit t)%Z /\
            sr_data (tk_inner t') = skipn k (sr_data (tk_inner t)) /\
            (err = None -> Z.of_nat k = Z.min (tk_limit t) (Z.of_nat (length (sr_data (tk_inner t)))))%Z.
Proof.
  induction fuel as [|f IH]; intros t out out' err t' Hl H; cbn [io_take_read_to_end] in H.
  - injection H as <- <- <-. exists 0. cbn. rewrite app_nil_r. repeat split; try lia. discriminate.
  - pose proof (take_read_spec t (Z.to_nat 16384) Hl) as Sp.
    destruct (io_take_read t (Z.to_nat 16384)) as [[bytes|e] t1].
    + destruct Sp as (k & Hk & Hkl & Eb & Er & El & El0 & Hz).
      assert (Ed : sr_data (tk_inner t) = bytes ++ sr_data (tk_inner t1)) by (rewrite Eb, Er; symmetry; apply firstn_skipn).
      destruct bytes as [|b0 bt].
      * injection H as <- <- <-. exists 0. rewrite Ed at 2. cbn [firstn skipn app]. rewrite app_nil_r.
        repeat split; try lia. intros _.
        destruct (Hz eq_refl) as [Hs|[H0|Hd]]; [change (Z.to_nat 16384) with (Pos.to_nat 16384) in Hs; lia|lia|rewrite Hd; cbn; lia].
      * destruct (IH t1 (out ++ b0 :: bt) out' err t' El0 H) as (k2 & -> & K2 & -> & Hn).
        exists (length (b0 :: bt) + k2). rewrite Ed, firstn_app_2, skipn_app_2, app_length, app_assoc.
        repeat split; lia.
    + destruct Sp as (El & Ed). injection H as <- <- <-. exists 0. cbn [firstn skipn]. rewrite app_nil_r.
      repeat split; [lia|exact Ed|discriminate].
Qed.

Lemma sw_write_spec w buf :
  match sw_write w buf with
  | (inl n, w') => n <= length buf /\ sw_out w' = sw_out w ++ firstn n buf /\
                   (n = 0 -> buf = [] \/ In WZero (sw_script w)) /\
                   length (sw_script w') <= length (sw_script w) /\ incl (sw_script w') (sw_script w)
  | (inr e, w') => sw_out w' = sw_out w /\
                   (e = EInterrupted /\ sw_script w = WInterrupted :: sw_script w' \/
                    e = EOther /\ sw_script w = WFail :: sw_script w')
  end.
Proof.
  unfold sw_write. destruct (sw_script w) as [|[n| | |] t]; cbn [sw_out sw_script length].
  - split; [lia|]. split; [rewrite firstn_all; reflexivity|]. split; [|split; [lia|apply incl_refl]].
    intros H. left. apply length_zero_iff_nil. exact H.
  - split; [lia|]. split; [reflexivity|]. split; [|split; [lia|apply incl_tl, incl_refl]].
    intros H. left. apply length_zero_iff_nil. lia.
  - split; [lia|]. split; [cbn; rewrite app_nil_r; reflexivity|].
    split; [intros _; right; left; reflexivity|]. split; [lia|apply incl_tl, incl_refl].
  - split; [reflexivity|left; split; reflexivity].
  - split; [reflexivity|right; split; reflexivity].
Qed.

Theorem write_all_spec fuel : forall w buf err w', length buf + length (sw_script w) < fuel ->
  io_write_all fuel w buf = (err, w') ->
  exists k, sw_out w' = sw_out w ++ firstn k buf /\
    match err with
    | None => k = length buf
    | Some EWriteZero => In WZero (sw_script w)
    | Some EOther => In WFail (sw_script w)
    | Some _ => False
    end.
Proof.
  induction fuel as [|f IH]; intros w buf err w' Hf H; [lia|].
  destruct buf as [|b0 bt]; cbn [io_write_all] in H.
  - injection H as <- <-. exists 0. cbn. rewrite app_nil_r. split; reflexivity.
  - remember (b0 :: bt) as buf eqn:Hbuf.
    pose proof (sw_write_spec w buf) as Sp. destruct (sw_write w buf) as [[n|e] w1].
    + destruct Sp as (Hn & Eo & Hz & Ls & Hin). destruct n as [|n'].
      * injection H as <- <-. exists 0. split; [exact Eo|].
        destruct (Hz eq_refl) as [Hb|Hw]; [subst; discriminate|exact Hw].
      * destruct (IH w1 (skipn (S n') buf) err w') as (k2 & -> & Herr); [rewrite skipn_length; lia|exact H|].
        exists (S n' + k2). rewrite Eo, <- app_assoc, firstn_split. split; [reflexivity|].
        destruct err as [[| | |]|]; try exact Herr; try (apply Hin; exact Herr).
        rewrite skipn_length in Herr. lia.
    + destruct Sp as (Eo & [[-> Es]|[-> Es]]); rewrite Es in *; cbn [length In] in *.
      * destruct (IH w1 buf err w') as (k2 & -> & Herr); [lia|exact H|].
        exists k2. rewrite Eo. split; [reflexivity|].
        destruct err as [[| | |]|]; try exact Herr; right; exact Herr.
      * injection H as <- <-. exists 0. cbn [firstn]. rewrite Eo, app_nil_r. split; [reflexivity|left; reflexivity].
Qed.
