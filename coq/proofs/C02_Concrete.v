(** C02 / C16: level Fastest, whole frames, with the block encoder spelled out: a match finder (any that meets the contract
    of C16, section [AnyEncoder]; the built-in one does, section [Concrete]), [compress_block]'s split into literal
    buffer and triples, any literals-section encoder that the decoder reads back, FSE-coded sequence tables from any
    normaliser whose distributions meet the decidable side conditions.  The four obligations of C02_Fastest.v are PROVED
    for this block encoder; what remains assumed is stated about the two table builders only (and is evaluated on every
    block of every run by the correspondence check); C02_Closed.v discharges it for the modelled builders. *)
Require Import Zrs.lib.RsPrelude Zrs.proofs.ModelFacts Zrs.gen.Generated Zrs.model.Headers Zrs.model.FseDec Zrs.model.HufDec Zrs.model.BlockDec
  Zrs.model.FrameDec Zrs.model.FrameEnc Zrs.model.Matcher.
Require Import Zrs.model.SeqEnc Zrs.model.SeqSection Zrs.model.BlockEnc.
Require Import Zrs.proofs.C06_Drain Zrs.proofs.C17_Matcher Zrs.proofs.C12_Desc Zrs.proofs.C12_Section Zrs.proofs.C02_Block
  Zrs.proofs.C02_Roundtrip.
Require Import Zrs.proofs.C17_Shape Zrs.proofs.C02_Glue Zrs.proofs.C02_FastGen Zrs.proofs.C02_Fastest.
Open Scope Z_scope.

Lemma hyps_section_exists dl do dm seqs : section_hyps_b dl do dm seqs = true -> exists sec, section_bytes dl do dm seqs = ROk sec.
Proof.
  unfold section_hyps_b, section_bytes. intros Hh.
  destruct (map_res to_cseq seqs) as [qs|e|e]; try discriminate.
  destruct (build_table MAX_LITERAL_LENGTH_CODE dl) as [Dll|e|e]; try discriminate.
  destruct (build_table MAX_OFFSET_CODE do) as [Dof|e|e]; try discriminate.
  destruct (build_table MAX_MATCH_LENGTH_CODE dm) as [Dml|e|e]; try discriminate.
  cbn [rbind].
  rewrite !andb_true_iff in Hh. destruct Hh as ((((((((S1 & S2) & S3) & _) & _) & _) & _) & _) & _).
  destruct (dist_side_ok _ _ _ S1) as (D1 & A1 & L1). destruct (dist_side_ok _ _ _ S2) as (D2 & A2 & L2).
  destruct (dist_side_ok _ _ _ S3) as (D3 & A3 & L3).
  unfold LL_MAX_LOG, OF_MAX_LOG, ML_MAX_LOG in *.
  destruct (description_roundtrip (fst dl) (snd dl) MAX_LITERAL_LENGTH_CODE 9 [0] ltac:(lia) ltac:(lia) D1 L1 ltac:(discriminate)) as (a & -> & _).
  destruct (description_roundtrip (fst do) (snd do) MAX_OFFSET_CODE 8 [0] ltac:(lia) ltac:(lia) D2 L2 ltac:(discriminate)) as (b & -> & _).
  destruct (description_roundtrip (fst dm) (snd dm) MAX_MATCH_LENGTH_CODE 9 [0] ltac:(lia) ltac:(lia) D3 L3 ltac:(discriminate)) as (c & -> & _).
  eexists. reflexivity.
Qed.

Lemma seq_part_exists dl do dm seqs : Z.of_nat (length seqs) <= 98047 ->
  (seqs <> [] -> section_hyps_b dl do dm seqs = true) -> exists sp, seq_part dl do dm seqs = ROk sp.
Proof.
  intros Hn Hh. unfold seq_part. destruct seqs as [|q qs]; [eexists; reflexivity|].
  specialize (Hh ltac:(discriminate)). destruct (hyps_section_exists _ _ _ _ Hh) as (sec & ->).
  rewrite (proj1 (C14_Headers.encode_seqnum_spec (Z.of_nat (length (q :: qs))) ltac:(cbn [length] in *; lia))). cbn [rbind]. eexists. reflexivity.
Qed.

(** what C16 demands of a reported match: distance within the window [w], length at least 3 *)
Definition match_within (w : nat) (s : mseq) : Prop :=
  match s with MLit _ => True | MTriple _ off ml => (1 <= off <= w)%nat /\ (3 <= ml)%nat end.

Lemma match_within_long w s : match_within w s -> long_enough s.
Proof. destruct s as [l|l off ml]; cbn; [trivial|]. lia. Qed.

Lemma matcher_seqs_in_range w ms : Forall (match_within w) ms -> Z.of_nat w < 2 ^ 31 -> Z.of_nat (mseqs_bytes ms) <= 131072 ->
  forallb seq_range_b (mseqs_seqs ms) = true.
Proof.
  intros Hb Hw. induction Hb as [|s t Hs _ IH]; intros Hl; [reflexivity|].
  cbn [mseqs_bytes] in Hl. change (s :: t) with ([s] ++ t). rewrite mseqs_seqs_app, forallb_app, IH, andb_true_r by lia.
  destruct s as [l|l off ml]; [reflexivity|]. cbn [match_within mseq_bytes] in *.
  cbn [mseqs_seqs flat_map app forallb]. unfold seq_range_b. cbn [sq_ll sq_ml sq_of]. unfold zlen.
  rewrite andb_true_r. repeat (apply andb_true_intro; split); lia.
Qed.

(** obligation O2: a literals section that the decoder, holding table [h], reads back as [lits], then holding [ht'] *)
Definition lit_ok (h : huf_table) (lits hdr payload : list Z) (ht' : huf_table) : Prop :=
  exists ty regen comp streams,
    (forall rest, lit_header_parse (hdr ++ rest) = ROk (zlen hdr, ty, regen, comp, streams)) /\
    match comp with Some x => x | None => if ty =? 1 then 1 else regen end = zlen payload /\
    (regen = zlen lits /\ regen <= MAX_BLOCK_SIZE) /\
    decode_literals {| ls_type := ty; ls_regen := regen; ls_comp := comp; ls_streams := streams |} h payload = ROk (ht', lits, zlen payload).

Lemma raw_lit_ok h lits : zlen lits <= MAX_BLOCK_SIZE -> lit_ok h lits (raw_lit_header (zlen lits)) lits h.
Proof.
  intros Hl. change MAX_BLOCK_SIZE with 131072 in *. exists 0, (zlen lits), None, None.
  assert (H0 : 0 <= zlen lits < 2 ^ 20) by (unfold zlen in *; lia).
  split; [intros rest; rewrite raw_lit_header_parse by exact H0; reflexivity|].
  split; [reflexivity|]. split; [split; [reflexivity|change MAX_BLOCK_SIZE with 131072; exact Hl]|].
  apply raw_literals_decode.
Qed.

Definition alphabets (s : fse_scratch) : Prop :=
  t_max_symbol (fs_ll s) = MAX_LITERAL_LENGTH_CODE /\ t_max_symbol (fs_of s) = MAX_OFFSET_CODE /\
  t_max_symbol (fs_ml s) = MAX_MATCH_LENGTH_CODE.

(** what C16 demands of a matcher (state [M], invariant [MI], retained bytes [mret], advertised window [mwin]): a block
    within the window is accepted, the retained bytes slide over it, and unless the block is skipped the report rebuilds
    it from the retained bytes ([apply_seqs]) by matches with their preceding literals and at most one trailing literal
    run *)
Definition meets_contract {M : Type} (mrun : M -> list Z -> bool -> res (M * option (list mseq)))
    (MI : M -> Prop) (mret : M -> list Z) (mwin : M -> nat) : Prop :=
  forall m data skip, MI m -> (length data <= mwin m)%nat ->
    exists m' out, mrun m data skip = ROk (m', out) /\ MI m' /\ mwin m' = mwin m /\
      exists dropped H, mret m = dropped ++ H /\ mret m' = H ++ data /\
        if skip then out = None
        else exists seqs, out = Some seqs /\ apply_seqs H seqs = Some (H ++ data) /\ Forall (match_within (mwin m)) seqs /\ block_shape seqs.

(** the block encoder and its four obligations, once: for any matcher meeting the contract of C16 (state [M]), any
    way of remembering a Huffman table (type [T], related to the decoder's table by [trel]), and any record [St] of the
    two *)
Section AnyEncoder.
  Variable M : Type.
  Variable mrun : M -> list Z -> bool -> res (M * option (list mseq)).   (* commit a block, then start_matching / skip_matching *)
  Variable mreset : M -> M.
  Variable MI : M -> Prop.
  Variable mret : M -> list Z.          (* the bytes the matcher may still refer to *)
  Variable mwin : M -> nat.             (* its advertised window *)
  Hypothesis contract : meets_contract mrun MI mret mwin.
  Hypothesis reset_contract : forall m, MI m -> MI (mreset m) /\ mwin (mreset m) = mwin m /\ mret (mreset m) = [].

  Variable norm : list sequence -> dist * dist * dist.
  Hypothesis O1 : forall seqs, seqs <> [] -> forallb seq_range_b seqs = true -> Z.of_nat (length seqs) <= 98047 ->
    let '(dl, do, dm) := norm seqs in section_hyps_b dl do dm seqs = true.

  Variable T : Type.
  Variable tnone : T.
  Variable trel : T -> huf_table -> Prop.
  Hypothesis trel_none : forall o h, trel o h -> trel tnone h.
  Hypothesis trel_init : trel tnone huf_new.
  Variable litenc : T -> list Z -> list Z * list Z * T.
  Hypothesis O2 : forall o lits h, trel o h -> zlen lits <= MAX_BLOCK_SIZE ->
    let '(hdr, payload, o') := litenc o lits in
    exists ht', lit_ok h lits hdr payload ht' /\ trel o' ht'.

  Variable St : Type.
  Variable st_m : St -> M.
  Variable st_t : St -> T.
  Variable mk : M -> T -> St.
  Hypothesis st_m_mk : forall m t, st_m (mk m t) = m.
  Hypothesis st_t_mk : forall m t, st_t (mk m t) = t.

  Definition gblock (cs : St) (blk : list Z) : list Z * St :=
    match mrun (st_m cs) blk false with
    | ROk (m', Some ms) =>
        let lits := mseqs_lits ms in
        let seqs := mseqs_seqs ms in
        let '(hdr, payload, o') := litenc (st_t cs) lits in
        let '(dl, do, dm) := norm seqs in
        match seq_part dl do dm seqs with
        | ROk sp => (hdr ++ payload ++ sp, mk m' o')
        | _ => ([], mk m' o')
        end
    | _ => ([], cs)
    end.
  Definition gskip (cs : St) (blk : list Z) : St :=
    match mrun (st_m cs) blk true with
    | ROk (m', _) => mk m' (st_t cs)
    | _ => cs
    end.
  Definition gfallback (cs : St) : St := mk (st_m cs) tnone.
  Definition greset (cs : St) : St := mk (mreset (st_m cs)) tnone.

  Definition GRel (cs : St) (sc : scratch) : Prop :=
    MI (st_m cs) /\ 131072 <= Z.of_nat (mwin (st_m cs)) < 2 ^ 31 /\
    db_wf (sc_buf sc) /\ (exists pre, db_rev (sc_buf sc) = rev (mret (st_m cs)) ++ pre) /\
    hist3 (sc_hist sc) /\ alphabets (sc_fse sc) /\ trel (st_t cs) (sc_huf sc).
  Definition GInit (cs : St) : Prop := MI (st_m cs) /\ 131072 <= Z.of_nat (mwin (st_m cs)) < 2 ^ 31.

  Lemma gfits cs sc (blk : list Z) : GRel cs sc -> Z.of_nat (length blk) <= 131072 -> (length blk <= mwin (st_m cs))%nat.
  Proof. intros (_ & Hw & _) H. clear - Hw H. lia. Qed.

  Lemma rel_after_block cs sc blk m' t' sc' dropped H :
    GRel cs sc -> MI m' -> mwin m' = mwin (st_m cs) -> mret (st_m cs) = dropped ++ H -> mret m' = H ++ blk ->
    db_wf (sc_buf sc') -> db_rev (sc_buf sc') = rev blk ++ db_rev (sc_buf sc) ->
    hist3 (sc_hist sc') -> alphabets (sc_fse sc') -> trel t' (sc_huf sc') ->
    GRel (mk m' t') sc'.
  Proof.
    intros (_ & Hw & _ & (pre & R) & _) HI' Hmw R1 R2 W' R' H3' Al' Ht'.
    unfold GRel. rewrite st_m_mk, st_t_mk, Hmw. repeat (split; [assumption|]). split; [|split; [assumption|split; assumption]].
    exists (rev dropped ++ pre). rewrite R', R, R1, R2, !rev_app_distr, <- !app_assoc. reflexivity.
  Qed.

  Lemma push_raw_rel cs sc blk m' t' dropped H :
    GRel cs sc -> MI m' -> mwin m' = mwin (st_m cs) -> mret (st_m cs) = dropped ++ H -> mret m' = H ++ blk ->
    trel t' (sc_huf sc) -> GRel (mk m' t') (sc_push_raw sc blk).
  Proof.
    intros HR HI' Hmw R1 R2 Ht'. pose proof HR as (_ & _ & W & _ & H3 & Al & _).
    apply (rel_after_block cs sc blk m' t' _ dropped H HR HI' Hmw R1 R2); try assumption.
    - unfold db_wf in *. cbn [sc_push_raw sc_buf db_append_raw db_len db_rev]. rewrite rev_append_rev, app_length, rev_length, W. lia.
    - apply rev_append_rev.
  Qed.

  Lemma G_skip : forall cs sc blk, GRel cs sc -> blk <> [] -> Z.of_nat (length blk) <= 131072 ->
    all_same blk = true -> GRel (gskip cs blk) (sc_push_raw sc blk).
  Proof.
    intros cs sc blk HR _ Hsz _. pose proof HR as (HI & _ & _ & _ & _ & _ & Ht).
    destruct (contract (st_m cs) blk true HI (gfits cs sc blk HR Hsz)) as (m' & out & E & HI' & Hmw & dr & H & R1 & R2 & _).
    unfold gskip. rewrite E. eapply push_raw_rel; eassumption.
  Qed.

  (** what [gblock] does from related states: the sequences part can be written, and all that [valid_parse_block]
      asks of the parse and of the tables holds *)
  Lemma gblock_spec cs sc blk : GRel cs sc -> Z.of_nat (length blk) <= 131072 ->
    exists m' ms hdr payload o' dl do dm sp dr H,
      gblock cs blk = (hdr ++ payload ++ sp, mk m' o') /\
      litenc (st_t cs) (mseqs_lits ms) = (hdr, payload, o') /\ seq_part dl do dm (mseqs_seqs ms) = ROk sp /\
      (mseqs_seqs ms <> [] -> section_hyps_b dl do dm (mseqs_seqs ms) = true) /\
      MI m' /\ mwin m' = mwin (st_m cs) /\ mret (st_m cs) = dr ++ H /\ mret m' = H ++ blk /\
      apply_seqs H ms = Some (H ++ blk) /\ block_shape ms /\ Forall long_enough ms /\ zlen (mseqs_lits ms) <= MAX_BLOCK_SIZE.
  Proof.
    intros HR Hsz. pose proof HR as (HI & Hw & _).
    destruct (contract (st_m cs) blk false HI (gfits cs sc blk HR Hsz)) as (m' & out & E & HI' & Hmw & dr & H & R1 & R2 & ms & -> & A & B & Sh).
    pose proof (apply_seqs_length _ _ _ A) as Ltot. rewrite app_length in Ltot.
    assert (Hlong : Forall long_enough ms) by (eapply Forall_impl; [|exact B]; intros; eapply match_within_long; eassumption).
    pose proof (mseqs_seqs_count _ Hlong) as Lseq. pose proof (mseqs_lits_length ms) as Llit.
    assert (Hcount : Z.of_nat (length (mseqs_seqs ms)) <= 98047) by lia.
    assert (Hrange : forallb seq_range_b (mseqs_seqs ms) = true) by (apply (matcher_seqs_in_range (mwin (st_m cs))); [exact B|lia|lia]).
    destruct (litenc (st_t cs) (mseqs_lits ms)) as [[hdr payload] o'] eqn:El.
    destruct (norm (mseqs_seqs ms)) as [[dl do] dm] eqn:En.
    assert (Hh : mseqs_seqs ms <> [] -> section_hyps_b dl do dm (mseqs_seqs ms) = true).
    { intros Hne. pose proof (O1 (mseqs_seqs ms) Hne Hrange Hcount) as Ho. rewrite En in Ho. exact Ho. }
    destruct (seq_part_exists dl do dm (mseqs_seqs ms) Hcount Hh) as (sp & Esp).
    exists m', ms, hdr, payload, o', dl, do, dm, sp, dr, H.
    unfold gblock. rewrite E, El, En, Esp. change MAX_BLOCK_SIZE with 131072. unfold zlen.
    repeat (split; [first [reflexivity|assumption]|]). lia.
  Qed.

  Lemma G_fallback : forall cs sc blk body cs', GRel cs sc -> blk <> [] -> Z.of_nat (length blk) <= 131072 ->
    gblock cs blk = (body, cs') -> GRel (gfallback cs') (sc_push_raw sc blk).
  Proof.
    intros cs sc blk body cs' HR _ Hsz Hc.
    destruct (gblock_spec cs sc blk HR Hsz) as (m' & ms & hdr & payload & o' & dl & do & dm & sp & dr & H & Ec & _ & _ & _ & HI' & Hmw & R1 & R2 & _).
    rewrite Ec in Hc. injection Hc as _ <-. unfold gfallback. rewrite st_m_mk.
    pose proof HR as (_ & _ & _ & _ & _ & _ & Ht). eapply push_raw_rel; try eassumption. eapply trel_none. exact Ht.
  Qed.

  Lemma G_block : forall cs sc blk body cs', GRel cs sc -> blk <> [] -> Z.of_nat (length blk) <= 131072 ->
    gblock cs blk = (body, cs') -> all_same blk = false ->
    (length body < length blk)%nat -> Z.of_nat (length body) <= MAX_BLOCK_SIZE ->
    exists sc', decompress_block (Z.of_nat (length body)) sc body = ROk sc' /\
                sc_content sc' = sc_content sc ++ blk /\ GRel cs' sc'.
  Proof.
    intros cs sc blk body cs' HR _ Hsz Hc _ _ _.
    destruct (gblock_spec cs sc blk HR Hsz) as (m' & ms & hdr & payload & o' & dl & do & dm & sp & dr & H & Ec & El & Esp & Hh & HI' & Hmw & R1 & R2 & A & (ts & tail & -> & Hts & Htail) & Hlong & Hlit).
    rewrite Ec in Hc. injection Hc as <- <-.
    pose proof HR as (_ & _ & W & (pre & R) & H3 & (M1 & M2 & M3) & Ht).
    pose proof (O2 (st_t cs) (mseqs_lits (ts ++ tail)) (sc_huf sc) Ht Hlit) as Ho. rewrite El in Ho.
    destruct Ho as (ht' & (ty & regen & comp & streams & L1 & L2 & L3 & L4) & Ho').
    rewrite R1, rev_app_distr, <- app_assoc in R.
    destruct (valid_parse_block hdr payload ty regen comp streams sc ht' (mseqs_lits (ts ++ tail)) L1 L2 L3 L4
                ts tail H blk dl do dm sp (rev dr ++ pre) eq_refl Hts Htail Hlong A ltac:(change MAX_BLOCK_SIZE with 131072; lia) Esp Hh M1 M2 M3 W R H3)
      as (sc' & Hdec & W' & R' & H3' & Hu & _ & _ & _ & Al').
    rewrite rev_app_distr, <- app_assoc, <- R in R'.
    exists sc'. split; [exact Hdec|]. split; [unfold sc_content; rewrite R', rev_app_distr, rev_involutive; reflexivity|].
    apply (rel_after_block cs sc blk m' o' sc' dr H); try assumption. rewrite Hu. exact Ho'.
  Qed.

  Lemma G_reset : forall cs w, GInit cs -> GRel (greset cs) (scratch_new w).
  Proof.
    intros cs w (HI & Hw). destruct (reset_contract (st_m cs) HI) as (HI' & Hmw & Hr).
    unfold GRel, greset. rewrite st_m_mk, st_t_mk, Hmw, Hr. cbn [scratch_new sc_buf sc_hist sc_fse sc_huf].
    split; [exact HI'|]. split; [exact Hw|]. split; [reflexivity|]. split; [exists []; reflexivity|].
    split; [eexists _, _, _; reflexivity|]. split; [repeat split|exact trel_init].
  Qed.

  (** level Fastest, every input, every fragmentation of the reads, every block size, every reuse history of the
      compressor *)
  Theorem any_encoder_roundtrip slice wsize hash32 cs data script frame cs' r' :
    GInit cs -> 1 <= Z.of_nat slice <= 131072 -> 1 <= wsize <= 2 ^ 27 ->
    (forall h x, hash32 = Some h -> length (h x) = 4%nat) ->
    compress_frame St gblock gskip gfallback greset LFastest slice wsize hash32 cs
      {| rd_data := data; rd_script := script |} = ROk (frame, cs', r') ->
    frame_decodes_to frame data hash32.
  Proof. apply (fastest_roundtrip St gblock gskip gfallback GRel G_block G_skip G_fallback greset GInit G_reset). Qed.
End AnyEncoder.

Definition builtin_run (m : mgd) (data : list Z) (skip : bool) := mstep m (OpBlock data skip).

Lemma builtin_contract : meets_contract builtin_run DInv retained max_window.
Proof.
  intros m data skip HI Hfit.
  destruct (mstep_spec m (OpBlock data skip) HI Hfit) as (m' & out & E & HI' & Hmw & dr & H & R1 & R2 & R3 & Hout).
  exists m', out. split; [exact E|]. split; [exact HI'|]. split; [exact Hmw|]. exists dr, H. split; [exact R1|]. split; [exact R2|].
  destruct skip; [exact Hout|]. destruct Hout as (seqs & -> & A & B). exists seqs. split; [reflexivity|]. split; [exact A|]. split.
  - eapply Forall_impl; [|exact B]. intros [l|l off ml] Hs; cbn in *; [trivial|]. unfold MIN_MATCH in Hs. lia.
  - eapply mstep_block_shape. exact E.
Qed.

Lemma builtin_reset_spec : forall m, DInv m -> DInv (mgd_reset m) /\ max_window (mgd_reset m) = max_window m /\ retained (mgd_reset m) = [].
Proof.
  intros m HI. destruct (mstep_spec m OpReset HI I) as (m' & out & E & HI' & Hmw & _ & Hr).
  cbn [mstep] in E. injection E as <- _. split; [exact HI'|]. split; [exact Hmw|exact Hr].
Qed.

(** the block encoder of the built-in match finder, remembering the decoder's table itself, or nothing *)
Record cst := { c_d : mgd; c_ht : option huf_table }.

Definition same_table (o : option huf_table) (h : huf_table) : Prop := forall t, o = Some t -> h = t.
Lemma same_table_none o h : same_table o h -> same_table None h.
Proof. discriminate. Qed.
Lemma same_table_init : same_table None huf_new.
Proof. discriminate. Qed.

Section Concrete.
  (** the two table builders are parameters: the normaliser of the three code histograms, and the literals encoder
      (which also decides what table the compressor remembers); C02_Closed.v puts their models in *)
  Variable norm : list sequence -> dist * dist * dist.
  Variable litenc : option huf_table -> list Z -> list Z * list Z * option huf_table.
  Hypothesis O1 : forall seqs, seqs <> [] -> forallb seq_range_b seqs = true -> Z.of_nat (length seqs) <= 98047 ->
    let '(dl, do, dm) := norm seqs in section_hyps_b dl do dm seqs = true.
  Hypothesis O2 : forall o lits h, (forall t, o = Some t -> h = t) -> zlen lits <= MAX_BLOCK_SIZE ->
    let '(hdr, payload, o') := litenc o lits in
    exists ht', lit_ok h lits hdr payload ht' /\ (forall t, o' = Some t -> ht' = t).

  Definition cblock (cs : cst) (blk : list Z) : list Z * cst :=
    match mstep (c_d cs) (OpBlock blk false) with
    | ROk (d', Some ms) =>
        let lits := mseqs_lits ms in
        let seqs := mseqs_seqs ms in
        let '(hdr, payload, o') := litenc (c_ht cs) lits in
        let '(dl, do, dm) := norm seqs in
        match seq_part dl do dm seqs with
        | ROk sp => (hdr ++ payload ++ sp, {| c_d := d'; c_ht := o' |})
        | _ => ([], {| c_d := d'; c_ht := o' |})
        end
    | _ => ([], cs)
    end.
  Definition cskip (cs : cst) (blk : list Z) : cst :=
    match mstep (c_d cs) (OpBlock blk true) with
    | ROk (d', _) => {| c_d := d'; c_ht := c_ht cs |}
    | _ => cs
    end.
  Definition cfallback (cs : cst) : cst := {| c_d := c_d cs; c_ht := None |}.
  Definition creset (cs : cst) : cst := {| c_d := mgd_reset (c_d cs); c_ht := None |}.

  Definition Rel (cs : cst) (sc : scratch) : Prop :=
    DInv (c_d cs) /\ 131072 <= Z.of_nat (max_window (c_d cs)) < 2 ^ 31 /\
    db_wf (sc_buf sc) /\ (exists pre, db_rev (sc_buf sc) = rev (retained (c_d cs)) ++ pre) /\
    hist3 (sc_hist sc) /\ alphabets (sc_fse sc) /\ (forall t, c_ht cs = Some t -> sc_huf sc = t).
  Definition Cinit (cs : cst) : Prop := DInv (c_d cs) /\ 131072 <= Z.of_nat (max_window (c_d cs)) < 2 ^ 31.

  Lemma fits cs sc (blk : list Z) : Rel cs sc -> Z.of_nat (length blk) <= 131072 -> (length blk <= max_window (c_d cs))%nat.
  Proof using litenc O2. exact (gfits mgd DInv retained max_window (option huf_table) same_table cst c_d c_ht cs sc blk). Qed.

  (** [cblock], [cskip], [cfallback], [creset], [Rel], [Cinit] are the encoder of the section above for the built-in
      match finder, remembering the decoder's table itself or nothing *)
  Theorem fastest_roundtrip_concrete slice wsize hash32 cs data script frame cs' r' :
    Cinit cs -> 1 <= Z.of_nat slice <= 131072 -> 1 <= wsize <= 2 ^ 27 ->
    (forall h x, hash32 = Some h -> length (h x) = 4%nat) ->
    compress_frame cst cblock cskip cfallback creset LFastest slice wsize hash32 cs
      {| rd_data := data; rd_script := script |} = ROk (frame, cs', r') ->
    frame_decodes_to frame data hash32.
  Proof.
    exact (any_encoder_roundtrip mgd builtin_run mgd_reset DInv retained max_window builtin_contract builtin_reset_spec norm O1
             (option huf_table) None same_table same_table_none same_table_init litenc O2
             cst c_d c_ht Build_cst (fun _ _ => eq_refl) (fun _ _ => eq_refl) slice wsize hash32 cs data script frame cs' r').
  Qed.
End Concrete.
