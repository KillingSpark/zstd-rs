(** C12: the FSE table description the compressor writes ([FSETable::write_table]) is read back by the decoder
    ([read_probabilities]) as exactly the distribution and accuracy log it was written from -- for every normalised
    distribution, whatever follows the description (at least one byte, as inside every frame). *)
Require Import Zrs.lib.RsPrelude Zrs.proofs.ModelFacts Zrs.lib.ListFacts Zrs.model.BitIO Zrs.model.BitStream Zrs.model.FseDec Zrs.model.FseEnc Zrs.proofs.C12_Stream.
Open Scope Z_scope.

Definition rdr (P T : list bit) : fbr := {| f_past := P; f_rest := T |}.

Lemma bits_val_lsb_app a : forall b, bits_val_lsb (a ++ b) = bits_val_lsb a + 2 ^ Z.of_nat (length a) * bits_val_lsb b.
Proof.
  induction a as [|x a IH]; intros b; cbn [app bits_val_lsb length].
  - change (2 ^ Z.of_nat 0) with 1. lia.
  - rewrite IH. rewrite Nat2Z.inj_succ, Z.pow_succ_r by lia. lia.
Qed.

Lemma get_bits_prefix B P T : (length B <= 64)%nat ->
  fbr_get_bits (rdr P (B ++ T)) (Z.of_nat (length B)) = ROk (bits_val_lsb B, rdr (rev B ++ P) T).
Proof.
  intros Hn. unfold fbr_get_bits, fbr_bits_left, rdr; cbn [f_rest f_past].
  destruct (Z.ltb_spec 64 (Z.of_nat (length B))) as [H|H]; [lia|].
  rewrite app_length.
  destruct (Z.ltb_spec (Z.of_nat (length B + length T)) (Z.of_nat (length B))) as [H1|H1]; [lia|].
  rewrite Nat2Z.id.
  rewrite firstn_app, Nat.sub_diag, firstn_O, app_nil_r, firstn_all.
  rewrite skipn_app, Nat.sub_diag, skipn_O, skipn_all. cbn [app].
  rewrite rev_append_rev. reflexivity.
Qed.

Lemma get_field n v P T : (n <= 64)%nat -> 0 <= v < 2 ^ Z.of_nat n ->
  fbr_get_bits (rdr P (byte_bits_lsb n v ++ T)) (Z.of_nat n) = ROk (v, rdr (rev (byte_bits_lsb n v) ++ P) T).
Proof.
  intros Hn Hv. pose proof (get_bits_prefix (byte_bits_lsb n v) P T) as G.
  rewrite byte_bits_lsb_length in G. rewrite G by assumption. rewrite val_of_byte_bits by assumption. reflexivity.
Qed.

(** a field one bit shorter than what the reader takes: the next bit of the stream is read as well and given back *)
Lemma get_short_field n v b P T : (S n <= 64)%nat -> 0 <= v < 2 ^ Z.of_nat n ->
  fbr_get_bits (rdr P (byte_bits_lsb n v ++ b :: T)) (Z.of_nat (S n)) =
    ROk (v + 2 ^ Z.of_nat n * b2z b, rdr (b :: rev (byte_bits_lsb n v) ++ P) T).
Proof.
  intros Hn Hv. pose proof (get_bits_prefix (byte_bits_lsb n v ++ [b]) P T) as G.
  rewrite app_length, byte_bits_lsb_length in G. cbn [length] in G. replace (n + 1)%nat with (S n) in G by lia.
  rewrite <- app_assoc in G. cbn [app] in G. rewrite G by assumption.
  rewrite bits_val_lsb_app, byte_bits_lsb_length, val_of_byte_bits by assumption.
  cbn [bits_val_lsb]. rewrite rev_app_distr. cbn [rev app]. do 2 f_equal. lia.
Qed.

Lemma return_one b P T : fbr_return_bits (rdr (b :: P) T) 1 = ROk (rdr P (b :: T)).
Proof.
  unfold fbr_return_bits, fbr_bits_read, rdr; cbn [f_past f_rest length].
  destruct (Z.ltb_spec (Z.of_nat (S (length P))) 1) as [H|H]; [lia|]. reflexivity.
Qed.

Lemma log2_nat M : 2 <= M <= 2 ^ 62 ->
  exists k : nat, Z.log2 M = Z.of_nat k /\ (1 <= k <= 62)%nat /\ 2 ^ Z.of_nat k <= M < 2 * 2 ^ Z.of_nat k.
Proof.
  intros HM. exists (Z.to_nat (Z.log2 M)). pose proof (Z.log2_spec M ltac:(lia)) as L.
  rewrite Z.pow_succ_r in L by apply Z.log2_nonneg.
  assert (1 <= Z.log2 M < 63) by (split; [apply Z.log2_le_pow2|apply Z.log2_lt_pow2]; lia).
  rewrite Z2Nat.id by lia. repeat split; lia.
Qed.

Lemma value_field_width M value : 2 <= M <= 2 ^ 62 -> (1 <= snd (value_field M value))%nat.
Proof.
  intros HM. destruct (log2_nat M HM) as (k & Ek & Hk & _). unfold value_field, highest_bit_set. rewrite Ek.
  destruct (_ <? _); [|destruct (_ <? _)]; cbn [snd]; lia.
Qed.

(** with [X] the power of two below [M]: the values below [2X - 1 - M] take one bit less (the reader takes it from what
    follows, and gives it back); the others are written in full, those from [X] on shifted up by [2X - 1 - M] *)
Lemma read_value_ok M value P T : 2 <= M <= 2 ^ 62 -> 0 <= value <= M -> T <> [] ->
  read_value (rdr P (byte_bits_lsb (snd (value_field M value)) (fst (value_field M value)) ++ T)) M =
    ROk (value, rdr (rev (byte_bits_lsb (snd (value_field M value)) (fst (value_field M value))) ++ P) T).
Proof.
  intros HM Hv HT. destruct (log2_nat M HM) as (k & Ek & Hk & HX).
  unfold read_value, value_field, highest_bit_set. rewrite Ek.
  replace (Z.of_nat k + 1 - 1) with (Z.of_nat k) by lia. replace (Z.of_nat k + 1) with (Z.of_nat (S k)) by lia.
  rewrite !Nat2Z.id. replace (2 ^ Z.of_nat (S k)) with (2 * 2 ^ Z.of_nat k) by (rewrite Nat2Z.inj_succ, Z.pow_succ_r; lia).
  set (X := 2 ^ Z.of_nat k) in *.
  assert (HX2 : 2 ^ Z.of_nat (S k) = 2 * X) by (rewrite Nat2Z.inj_succ, Z.pow_succ_r; lia).
  destruct (Z.ltb_spec value (2 * X - 1 - M)) as [Hlo|Hlo]; cbn [fst snd].
  - destruct T as [|b T']; [congruence|].
    rewrite get_short_field by (fold X; lia). cbn [rbind]. fold X.
    replace ((value + X * b2z b) mod X) with value by (rewrite Z.mul_comm, Z_mod_plus_full, Z.mod_small; lia).
    destruct (Z.ltb_spec value (2 * X - 1 - M)) as [_|H]; [|lia].
    rewrite return_one. reflexivity.
  - destruct (Z.ltb_spec (X - 1) value) as [Hm|Hm]; cbn [fst snd]; rewrite get_field by lia; cbn [rbind].
    + replace ((value + (2 * X - 1 - M)) mod X) with (value + (2 * X - 1 - M) - X)
        by (apply (Z.mod_unique _ _ 1); [left; lia|lia]).
      destruct (Z.ltb_spec (value + (2 * X - 1 - M) - X) (2 * X - 1 - M)) as [H|_]; [lia|].
      destruct (Z.ltb_spec (X - 1) (value + (2 * X - 1 - M))) as [_|H]; [|lia].
      do 2 f_equal. lia.
    + rewrite Z.mod_small by lia.
      destruct (Z.ltb_spec value (2 * X - 1 - M)) as [H|_]; [lia|].
      destruct (Z.ltb_spec (X - 1) value) as [H|_]; [lia|]. reflexivity.
Qed.

Lemma zeros_snoc k l : zeros k ++ 0 :: l = 0 :: zeros k ++ l.
Proof. induction k as [|k IH]; cbn [zeros app]; [reflexivity|]. rewrite IH. reflexivity. Qed.

Lemma rev_zeros k : rev (zeros k) = zeros k.
Proof.
  induction k as [|k IH]; cbn [zeros rev]; [reflexivity|]. rewrite IH.
  pose proof (zeros_snoc k []) as H. rewrite !app_nil_r in H. exact H.
Qed.

Lemma fields_bits_cons f fs : fields_bits (f :: fs) = byte_bits_lsb (snd f) (fst f) ++ fields_bits fs.
Proof. reflexivity. Qed.

Lemma fields_bits_cons_length f fs : length (fields_bits (f :: fs)) = (snd f + length (fields_bits fs))%nat.
Proof. rewrite fields_bits_cons, app_length, byte_bits_lsb_length. reflexivity. Qed.

Lemma skip_flag v fuel P T acc : 0 <= v <= 3 ->
  skip_zero_runs (S fuel) (rdr P (byte_bits_lsb 2 v ++ T)) acc =
    let br := rdr (rev (byte_bits_lsb 2 v) ++ P) T in
    if v =? 3 then skip_zero_runs fuel br (zeros (Z.to_nat v) ++ acc) else ROk (br, zeros (Z.to_nat v) ++ acc).
Proof.
  intros Hv. cbn [skip_zero_runs]. change 2 with (Z.of_nat 2).
  rewrite get_field by (try lia; change (2 ^ Z.of_nat 2) with 4; lia). reflexivity.
Qed.

Lemma skip_zero_ok : forall z fuel P T acc, (length (zero_fields z) <= fuel)%nat ->
  skip_zero_runs fuel (rdr P (fields_bits (zero_fields z) ++ T)) acc =
    ROk (rdr (rev (fields_bits (zero_fields z)) ++ P) T, zeros z ++ acc).
Proof.
  intros z. induction z as [z IH] using lt_wf_ind. intros [|fuel] P T acc Hf; [destruct z as [|[|[|k]]]; cbn in Hf; lia|].
  destruct z as [|[|[|k]]].
  1-3: cbn [zero_fields fields_bits flat_map fst snd]; rewrite app_nil_r, skip_flag by lia; reflexivity.
  change (zero_fields (S (S (S k)))) with ((3, 2%nat) :: zero_fields k) in *. cbn [length] in Hf.
  rewrite fields_bits_cons. cbn [fst snd]. rewrite <- app_assoc, skip_flag by lia. change (3 =? 3) with true. cbv iota zeta.
  rewrite IH by lia. rewrite rev_app_distr, <- app_assoc.
  change (Z.to_nat 3) with 3%nat. cbn [zeros app]. rewrite !zeros_snoc. reflexivity.
Qed.

Lemma weight_nonneg l : Forall (fun p => -1 <= p) l -> 0 <= weight l.
Proof.
  induction 1 as [|p t Hp _ IH]; cbn [weight]; [lia|]. unfold pw. destruct (Z.eqb_spec p (-1)); lia.
Qed.

Lemma pw_ge p : -1 <= p -> 0 <= pw p /\ p <= pw p.
Proof. intros H. unfold pw. destruct (Z.eqb_spec p (-1)); lia. Qed.

Lemma last_tail (p : Z) t : last (p :: t) 1 <> 0 -> last t 1 <> 0.
Proof. destruct t; [cbn; lia|exact (fun H => H)]. Qed.

Lemma last_zeros z r : r <> [] -> last (zeros z ++ r) 1 = last r 1.
Proof. intros Hr. induction z as [|z IH]; [reflexivity|]. cbn [zeros app]. rewrite <- IH. destruct (zeros z ++ r) eqn:E; [|reflexivity]. apply app_eq_nil in E. tauto. Qed.

(** no weight left: the distribution has ended (it does not end in a zero) *)
Lemma weight_zero_nil l : Forall (fun p => -1 <= p) l -> weight l <= 0 -> last l 1 <> 0 -> l = [].
Proof.
  induction 1 as [|p t Hp Ht IH]; intros Hw Hl; [reflexivity|]. exfalso.
  cbn [weight] in Hw. pose proof (weight_nonneg t Ht). pose proof (pw_ge p Hp) as [P1 P2].
  assert (p = 0) by (unfold pw in *; destruct (Z.eqb_spec p (-1)); lia). subst p.
  specialize (IH ltac:(cbn [pw] in *; lia) (last_tail 0 t Hl)). subst t. apply Hl. reflexivity.
Qed.

Lemma count_zeros_spec t : forall z r, count_zeros t = (z, r) ->
  t = zeros z ++ r /\ weight t = weight r /\ (length r <= length t)%nat.
Proof.
  induction t as [|p t IH]; intros z r H; cbn [count_zeros] in H.
  - inversion H; subst. cbn. repeat split; lia.
  - destruct (Z.eqb_spec p 0) as [E|E].
    + destruct (count_zeros t) as [n r'] eqn:Ec. inversion H; subst.
      destruct (IH n r eq_refl) as (I1 & I2 & I3).
      cbn [zeros app weight length]. rewrite <- I1, I2. repeat split; try lia; try reflexivity.
    + inversion H; subst. cbn [zeros app]. repeat split; lia.
Qed.

Lemma zero_fields_bits z : (length (zero_fields z) <= length (fields_bits (zero_fields z)))%nat.
Proof.
  induction z as [z IH] using lt_wf_ind. destruct z as [|[|[|k]]]; try (cbn; lia).
  change (zero_fields (S (S (S k)))) with ((3, 2%nat) :: zero_fields k).
  rewrite fields_bits_cons_length. cbn [length snd]. specialize (IH k ltac:(lia)). lia.
Qed.

Lemma write_probs_nonzero f p t sum counter : counter < sum -> -1 <= p -> p <> 0 ->
  write_probs (S f) (p :: t) sum counter =
    option_map (cons (value_field (sum - counter + 1) (p + 1))) (write_probs f t sum (counter + pw p)).
Proof.
  intros Hc Hm Hp. cbn [write_probs]. unfold pw. destruct (Z.ltb_spec counter sum); [|lia].
  destruct (Z.eqb_spec p (-1)); [reflexivity|]. destruct (Z.ltb_spec 0 p); [reflexivity|lia].
Qed.

Lemma write_probs_zero f t z r sum counter : counter < sum -> count_zeros t = (z, r) -> r <> [] ->
  write_probs (S f) (0 :: t) sum counter =
    option_map (fun rest => value_field (sum - counter + 1) (0 + 1) :: zero_fields z ++ rest) (write_probs f r sum counter).
Proof.
  intros Hc Ez Hr. cbn [write_probs]. destruct (Z.ltb_spec counter sum); [|lia].
  change (0 =? -1) with false. change (0 <? 0) with false. cbv iota. rewrite Ez. destruct r; [congruence|reflexivity].
Qed.

Lemma read_probs_nonzero fr sum counter p P T acc : counter < sum -> sum - counter + 1 <= 2 ^ 62 -> -1 <= p <= sum - counter ->
  p <> 0 -> T <> [] -> let f0 := value_field (sum - counter + 1) (p + 1) in
  read_probs_loop (S fr) (rdr P (byte_bits_lsb (snd f0) (fst f0) ++ T)) sum counter acc =
    read_probs_loop fr (rdr (rev (byte_bits_lsb (snd f0) (fst f0)) ++ P) T) sum (counter + pw p) (p :: acc).
Proof.
  intros Hc Hs Hp Hp0 HT f0. subst f0. cbn [read_probs_loop]. destruct (Z.ltb_spec counter sum); [|lia].
  rewrite read_value_ok by (lia || exact HT). cbn [rbind].
  replace (p + 1 - 1) with p by lia. unfold pw.
  destruct (Z.eqb_spec p 0); [lia|]. destruct (Z.eqb_spec p (-1)); destruct (Z.ltb_spec 0 p); reflexivity || lia.
Qed.

Lemma read_probs_zero fr sum counter z P T acc : counter < sum -> sum - counter + 1 <= 2 ^ 62 ->
  (length (zero_fields z) <= fr)%nat -> T <> [] -> let f0 := value_field (sum - counter + 1) (0 + 1) in
  read_probs_loop (S fr) (rdr P (byte_bits_lsb (snd f0) (fst f0) ++ fields_bits (zero_fields z) ++ T)) sum counter acc =
    read_probs_loop fr (rdr (rev (fields_bits (zero_fields z)) ++ rev (byte_bits_lsb (snd f0) (fst f0)) ++ P) T) sum counter
      (zeros z ++ 0 :: acc).
Proof.
  intros Hc Hs Hf HT f0. subst f0. cbn [read_probs_loop]. destruct (Z.ltb_spec counter sum); [|lia].
  rewrite read_value_ok by (lia || exact (app_nonempty_r _ T HT)). cbn [rbind].
  change (0 + 1 - 1 =? 0) with true. cbv iota. rewrite skip_zero_ok by exact Hf. reflexivity.
Qed.

Lemma description_loop sum : 0 < sum < 2 ^ 62 -> forall fw probs counter, (length probs < fw)%nat -> 0 <= counter ->
  Forall (fun p => -1 <= p) probs -> weight probs = sum - counter -> last probs 1 <> 0 ->
  exists fs, write_probs fw probs sum counter = Some fs /\
    (length fs <= length (fields_bits fs))%nat /\
    forall fr P T acc, (length fs < fr)%nat -> T <> [] ->
      read_probs_loop fr (rdr P (fields_bits fs ++ T)) sum counter acc =
        ROk (rdr (rev (fields_bits fs) ++ P) T, sum, rev probs ++ acc).
Proof.
  intros Hsum fw. induction fw as [|fw IH]; intros probs counter Hlen Hc0 Hall Hw Hlast; [lia|].
  destruct (Z.ltb_spec counter sum) as [Hc|Hc].
  2:{ (* no weight left *)
    assert (probs = []) by (apply weight_zero_nil; [assumption|lia|assumption]). subst probs. cbn [weight] in Hw. exists []. cbn [write_probs].
    destruct (Z.ltb_spec counter sum); [lia|]. split; [reflexivity|]. split; [reflexivity|].
    intros [|fr] P T acc Hfr HT; [cbn in Hfr; lia|]. cbn [read_probs_loop]. destruct (Z.ltb_spec counter sum); [lia|].
    cbn [fields_bits flat_map rev app]. do 3 f_equal. lia. }
  destruct probs as [|p t]; [cbn [weight] in Hw; lia|].
  inversion Hall as [|? ? Hp Ht]; subst. cbn [weight] in Hw. cbn [length] in Hlen.
  pose proof (weight_nonneg t Ht) as Wt. pose proof (pw_ge p Hp) as [P1 P2]. pose proof (last_tail p t Hlast) as Lt.
  set (f0 := value_field (sum - counter + 1) (p + 1)).
  pose proof (value_field_width (sum - counter + 1) (p + 1) ltac:(lia)) as W1. fold f0 in W1.
  destruct (Z.eq_dec p 0) as [->|Hp0].
  - (* a zero, and the run of zeros after it *)
    change (pw 0) with 0 in *.
    destruct (count_zeros t) as [z r] eqn:Ec. destruct (count_zeros_spec t z r Ec) as (Et & Ew & El).
    assert (Hr : r <> []) by (intros ->; cbn [weight] in Ew; lia).
    destruct (IH r counter ltac:(lia) Hc0) as (fs' & W & Wl & R); [rewrite Et in Ht; apply Forall_app in Ht; tauto|lia| |].
    { rewrite Et, last_zeros in Lt by exact Hr. exact Lt. }
    exists (f0 :: zero_fields z ++ fs'). split; [rewrite (write_probs_zero _ _ z r) by assumption; rewrite W; reflexivity|].
    split.
    { cbn [length]. rewrite fields_bits_cons_length, fields_bits_app, !app_length. pose proof (zero_fields_bits z). lia. }
    intros [|fr] P T acc Hfr HT; [lia|]. cbn [length] in Hfr. rewrite app_length in Hfr.
    rewrite fields_bits_cons, fields_bits_app, <- !app_assoc. unfold f0.
    rewrite read_probs_zero by (auto using app_nonempty_r; lia). rewrite R by (assumption || lia).
    rewrite Et. cbn [rev]. rewrite !rev_app_distr, rev_zeros, <- !app_assoc. reflexivity.
  - (* a probability, or "less than one": the counter moves on *)
    destruct (IH t (counter + pw p) ltac:(lia) ltac:(lia) Ht ltac:(lia) Lt) as (fs' & W & Wl & R).
    exists (f0 :: fs'). split; [rewrite write_probs_nonzero by assumption; rewrite W; reflexivity|].
    split; [cbn [length]; rewrite fields_bits_cons_length; lia|].
    intros [|fr] P T acc Hfr HT; [lia|]. cbn [length] in Hfr.
    rewrite fields_bits_cons, <- app_assoc. unfold f0.
    rewrite read_probs_nonzero by (auto using app_nonempty_r; lia). rewrite R by (assumption || lia).
    cbn [rev]. rewrite rev_app_distr, <- !app_assoc. reflexivity.
Qed.

Definition dist_ok (acc_log : Z) (probs : list Z) : Prop :=
  Forall (fun p => -1 <= p) probs /\ weight probs = 2 ^ acc_log /\ last probs 1 <> 0.

Lemma dist_okb_ok acc_log probs : dist_okb acc_log probs = true -> dist_ok acc_log probs.
Proof.
  unfold dist_okb, dist_ok. intros H. apply andb_prop in H as [H H3]. apply andb_prop in H as [H1 H2].
  split; [|split].
  - apply Forall_forall. intros p Hp. rewrite forallb_forall in H1. specialize (H1 p Hp). lia.
  - lia.
  - destruct (Z.eqb_spec (last probs 1) 0); [discriminate|assumption].
Qed.

Lemma pad_bits_spec b : exists k, (length (pad_bits b) = 8 * k /\ length b <= 8 * k < length b + 8)%nat.
Proof.
  unfold pad_bits. rewrite app_length, repeat_length.
  exists ((length b + (8 - length b mod 8) mod 8) / 8)%nat. lia.
Qed.

Theorem description_roundtrip acc_log probs max_symbol max_log rest :
  5 <= acc_log <= 20 -> acc_log <= max_log -> dist_ok acc_log probs ->
  Z.of_nat (length probs) <= max_symbol + 1 -> rest <> [] ->
  exists d, desc_bytes acc_log probs = Some d /\
    read_probabilities max_symbol (d ++ rest) max_log = ROk (acc_log, probs, Z.of_nat (length d)).
Proof.
  intros Hal Hml (Hall & Hw & Hlast) Hms Hrest.
  assert (Hsum : 0 < 2 ^ acc_log < 2 ^ 62) by (split; [lia|apply Z.pow_lt_mono_r; lia]).
  destruct (description_loop (2 ^ acc_log) Hsum (S (length probs)) probs 0 ltac:(lia) ltac:(lia) Hall ltac:(lia) Hlast)
    as (fs & W & Wl & R).
  unfold desc_bytes, desc_fields. rewrite W. cbn [option_map].
  set (B := fields_bits ((acc_log - 5, 4%nat) :: fs)).
  set (d := bytes_of_bits (pad_bits B) (S (length (pad_bits B)))).
  exists d. split; [reflexivity|].
  (* [d] is the [k] bytes that hold the bits [B] and less than 8 zeros *)
  destruct (pad_bits_spec B) as (k & Hk & Hk').
  assert (Hbits : bits_of_bytes_lsb d = pad_bits B) by (apply bits_of_bytes_of_bits; [lia|exists k; exact Hk]).
  assert (Hd : length d = k) by (pose proof (bits_of_bytes_length d) as H; rewrite Hbits, Hk in H; lia).
  assert (HB : length B = (4 + length (fields_bits fs))%nat)
    by apply fields_bits_cons_length.
  unfold read_probabilities, fbr_new, bits_of_bytes_lsb. rewrite flat_map_app. fold (bits_of_bytes_lsb d) (bits_of_bytes_lsb rest).
  rewrite Hbits. unfold pad_bits, B. rewrite fields_bits_cons. cbn [fst snd]. rewrite <- !app_assoc.
  match goal with |- context [repeat false ?n ++ _] => set (T := repeat false n ++ bits_of_bytes_lsb rest) end.
  assert (HT : T <> []) by (apply app_nonempty_r; destruct rest; [congruence|discriminate]).
  fold (rdr [] (byte_bits_lsb 4 (acc_log - 5) ++ fields_bits fs ++ T)).
  change 4 with (Z.of_nat 4) at 1.
  rewrite get_field by (try lia; change (2 ^ Z.of_nat 4) with 16; lia).
  cbn [rbind]. unfold ACC_LOG_OFFSET. replace (5 + (acc_log - 5)) with acc_log by lia.
  destruct (Z.ltb_spec max_log acc_log) as [H|_]; [lia|].
  destruct (Z.eqb_spec acc_log 0) as [H|_]; [lia|].
  rewrite R by (try assumption; rewrite app_length; lia).
  cbn [rbind]. rewrite Z.eqb_refl. cbn [negb]. rewrite app_nil_r, rev_length.
  destruct (Z.ltb_spec (max_symbol + 1) (Z.of_nat (length probs))) as [H|_]; [lia|].
  rewrite rev_involutive. do 2 f_equal.
  unfold fbr_bits_read, rdr; cbn [f_past]. rewrite app_nil_r, app_length, !rev_length, byte_bits_lsb_length.
  destruct (Z.eqb_spec (Z.of_nat (length (fields_bits fs) + 4) mod 8) 0) as [E|E]; lia.
Qed.

Example dist_ok_non_vacuous : dist_ok 5 [31; -1] /\ dist_ok 6 [1; 0; 0; 0; 0; 0; 0; 0; 0; 0; 0; 30; -1; 0; 32].
Proof. split; apply dist_okb_ok; vm_compute; reflexivity. Qed.
