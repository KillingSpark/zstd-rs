(** C03 / C01: the 64-bit container machine of BitReaderReversed never panics (no out-of-range slice when refilling,
    no u8 overflow or underflow, no oversized shift) for any script of reads of at most 56 bits, and its
    [bits_remaining] counter follows the same law as the abstract reader's: 8 * length - bits requested so far. *)
Require Import Zrs.lib.RsPrelude Zrs.model.BitIO Zrs.model.BitRev64.
Open Scope Z_scope.

Definition BInv (r : brr) : Prop :=
  0 <= b_consumed r <= 64 /\ 0 <= b_index r /\ 0 <= b_extra r /\
  ((b_index r = Z.of_nat (length (b_src r)) /\ b_consumed r = 64) \/ b_index r + 8 <= Z.of_nat (length (b_src r)) \/ b_index r = 0).

Lemma brr_new_inv src : BInv (brr_new src) /\ brr_bits_remaining (brr_new src) = 8 * Z.of_nat (length src).
Proof. unfold BInv, brr_new, brr_bits_remaining. cbn [b_index b_consumed b_extra b_src]. split; [|lia]. split; [lia|]. split; [lia|]. split; [lia|]. left. split; reflexivity. Qed.

Lemma refill_ok r : BInv r ->
  exists r', brr_refill r = ROk r' /\ BInv r' /\ brr_bits_remaining r' = brr_bits_remaining r /\
             b_src r' = b_src r /\ b_consumed r' < 8.
Proof.
  intros (Hc & Hi & He & Hj). unfold brr_refill, brr_bits_remaining.
  destruct (Z.eqb_spec (b_consumed r / 8) 0) as [H0|Hn0]; [exists r; repeat split; try assumption; lia|].
  (* whole bytes from the source; the last bytes of the source; nothing left, with or without a shift *)
  destruct (Z.leb_spec (b_consumed r / 8) (b_index r)) as [Hle|Hgt]; [|destruct (Z.ltb_spec 0 (b_index r)) as [Hpos|Hzero]].
  1: destruct (Z.ltb_spec (Z.of_nat (length (b_src r))) (b_index r - b_consumed r / 8 + 8)) as [Hbad|_]; [lia|].
  2: destruct (Z.ltb_spec (b_consumed r - 8 * b_index r) 0) as [|_]; [lia|];
     destruct (Z.leb_spec 64 (b_consumed r - 8 * b_index r)) as [|_]; [lia|].
  3: destruct (Z.ltb_spec (b_consumed r) 64) as [Hlt|Hge].
  all: eexists; split; [reflexivity|]; unfold BInv; cbn [b_index b_consumed b_extra b_src b_cont]; repeat split; try lia.
Qed.

Lemma consume_ok r n : BInv r -> 0 <= n -> b_consumed r + n <= 64 ->
  exists r', brr_consume r n = ROk r' /\ BInv r' /\ brr_bits_remaining r' = brr_bits_remaining r - n /\ b_src r' = b_src r.
Proof.
  intros (Hc & Hi & He & Hj) Hn Hfit. unfold brr_consume. destruct (Z.ltb_spec 255 (b_consumed r + n)) as [|_]; [lia|].
  eexists. split; [reflexivity|]. unfold BInv, brr_bits_remaining. cbn [b_index b_consumed b_extra b_src]. repeat split; lia.
Qed.
Lemma peek_ok r n : 0 <= n <= 56 -> b_consumed r + n <= 64 -> exists v, brr_peek r n = ROk v /\ 0 <= v < 2 ^ n.
Proof.
  intros Hn Hfit. unfold brr_peek. destruct (Z.eqb_spec n 0) as [->|Hn0]; [exists 0; split; [reflexivity|cbn; lia]|].
  destruct (Z.leb_spec 64 n) as [|_]; [lia|]. destruct (Z.ltb_spec (64 - b_consumed r - n) 0) as [|_]; [lia|].
  eexists. split; [reflexivity|]. apply Z.mod_pos_bound. apply Z.pow_pos_nonneg; lia.
Qed.
Lemma peek_triple_ok r sum n1 n2 n3 : b_consumed r + sum <= 64 -> exists v, brr_peek_triple r sum n1 n2 n3 = ROk v.
Proof.
  intros Hfit. unfold brr_peek_triple. destruct (sum =? 0); [eexists; reflexivity|].
  destruct (Z.ltb_spec (64 - b_consumed r - sum) 0) as [|_]; [lia|]. eexists; reflexivity.
Qed.

(** a refill leaves fewer than 8 bits consumed, so any read of at most 56 bits fits *)
Theorem get_bits_ok r n : BInv r -> 0 <= n <= 56 ->
  exists v r', brr_get_bits r n = ROk (v, r') /\ BInv r' /\ brr_bits_remaining r' = brr_bits_remaining r - n /\
               b_src r' = b_src r /\ 0 <= v < 2 ^ n.
Proof.
  intros HI Hn. pose proof HI as (Hc & _). unfold brr_get_bits.
  destruct (Z.ltb_spec 255 (b_consumed r + n)) as [|_]; [lia|].
  assert (Hr : exists r1, (if 64 <? b_consumed r + n then brr_refill r else ROk r) = ROk r1 /\ BInv r1 /\
                          brr_bits_remaining r1 = brr_bits_remaining r /\ b_src r1 = b_src r /\ b_consumed r1 + n <= 64).
  { destruct (Z.ltb_spec 64 (b_consumed r + n)) as [Hover|Hfit].
    - destruct (refill_ok r HI) as (r1 & E & I1 & R1 & S1 & C1). exists r1. repeat (split; [assumption|]). lia.
    - exists r. repeat (split; [reflexivity || assumption|]). exact Hfit. }
  destruct Hr as (r1 & -> & I1 & R1 & S1 & C1). cbn [rbind].
  destruct (peek_ok r1 n Hn C1) as (v & -> & Hv). cbn [rbind].
  destruct (consume_ok r1 n I1 ltac:(lia) C1) as (r2 & -> & I2 & R2 & S2). cbn [rbind].
  exists v, r2. split; [reflexivity|]. split; [exact I2|]. split; [lia|]. split; [congruence|exact Hv].
Qed.

Theorem get_bits_triple_ok r n1 n2 n3 : BInv r -> 0 <= n1 <= 56 -> 0 <= n2 <= 56 -> 0 <= n3 <= 56 ->
  exists v r', brr_get_bits_triple r n1 n2 n3 = ROk (v, r') /\ BInv r' /\
               brr_bits_remaining r' = brr_bits_remaining r - (n1 + n2 + n3) /\ b_src r' = b_src r.
Proof.
  intros HI H1 H2 H3. unfold brr_get_bits_triple.
  destruct (Z.ltb_spec 255 (n1 + n2 + n3)) as [|_]; [lia|].
  destruct (Z.leb_spec (n1 + n2 + n3) 56) as [Hsmall|Hbig].
  - destruct (refill_ok r HI) as (r1 & -> & I1 & R1 & S1 & Hc8). cbn [rbind].
    destruct (peek_triple_ok r1 (n1 + n2 + n3) n1 n2 n3 ltac:(lia)) as (v & ->). cbn [rbind].
    destruct (consume_ok r1 (n1 + n2 + n3) I1 ltac:(lia) ltac:(lia)) as (r2 & -> & I2 & R2 & S2). cbn [rbind].
    exists v, r2. split; [reflexivity|]. split; [exact I2|]. split; [lia|congruence].
  - destruct (get_bits_ok r n1 HI H1) as (v1 & r1 & -> & I1 & R1 & S1 & _). cbn [rbind].
    destruct (get_bits_ok r1 n2 I1 H2) as (v2 & r2 & -> & I2 & R2 & S2 & _). cbn [rbind].
    destruct (get_bits_ok r2 n3 I2 H3) as (v3 & r3 & -> & I3 & R3 & S3 & _). cbn [rbind].
    eexists _, _. split; [reflexivity|]. split; [exact I3|]. split; [lia|congruence].
Qed.

Lemma rbr_get_bits_count r n : 0 <= n -> rbr_bits_remaining (snd (rbr_get_bits r n)) = rbr_bits_remaining r - n.
Proof.
  intros Hn. unfold rbr_get_bits, rbr_bits_remaining.
  destruct (Z.leb_spec n 0) as [H0|Hpos]; [cbn [snd]; lia|].
  destruct (Z.leb_spec n (r_left r)); cbn [snd r_left r_extra]; lia.
Qed.

Definition op_bits (o : Z + Z * Z * Z) : Z := match o with inl n => n | inr (a, b, c) => a + b + c end.
Definition op_ok (o : Z + Z * Z * Z) : Prop :=
  match o with inl n => 0 <= n <= 56 | inr (a, b, c) => 0 <= a <= 56 /\ 0 <= b <= 56 /\ 0 <= c <= 56 end.

Fixpoint counts (start : Z) (ops : list (Z + Z * Z * Z)) : list Z :=
  match ops with [] => [] | o :: t => (start - op_bits o) :: counts (start - op_bits o) t end.

Theorem brr_run_ok ops : forall r, BInv r -> Forall op_ok ops ->
  exists out, brr_run r ops = ROk out /\ map snd out = counts (brr_bits_remaining r) ops.
Proof.
  induction ops as [|o t IH]; intros r HI Ho.
  - exists []. split; reflexivity.
  - inversion Ho as [|? ? H1 H2]; subst. cbn [brr_run counts].
    destruct o as [n|[[n1 n2] n3]]; cbn [op_ok op_bits] in *.
    + destruct (get_bits_ok r n HI H1) as (v & r1 & E & I1 & R1 & _). rewrite E. cbn [rbind].
      destruct (IH r1 I1 H2) as (out & Eo & Mo). rewrite Eo. cbn [rbind].
      eexists. split; [reflexivity|]. cbn [map snd]. rewrite Mo, R1. reflexivity.
    + destruct H1 as (A & B & C).
      destruct (get_bits_triple_ok r n1 n2 n3 HI A B C) as (v & r1 & E & I1 & R1 & _). rewrite E. cbn [rbind].
      destruct v as [[v1 v2] v3].
      destruct (IH r1 I1 H2) as (out & Eo & Mo). rewrite Eo. cbn [rbind].
      eexists. split; [reflexivity|]. cbn [map snd]. rewrite Mo, R1. reflexivity.
Qed.

Lemma rbr_triple_count r n1 n2 n3 : 0 <= n1 -> 0 <= n2 -> 0 <= n3 ->
  rbr_bits_remaining (snd (rbr_get_bits_triple r n1 n2 n3)) = rbr_bits_remaining r - (n1 + n2 + n3).
Proof.
  intros H1 H2 H3. unfold rbr_get_bits_triple.
  pose proof (rbr_get_bits_count r n1 H1) as C1. destruct (rbr_get_bits r n1) as [v1 r1]. cbn [snd] in C1.
  pose proof (rbr_get_bits_count r1 n2 H2) as C2. destruct (rbr_get_bits r1 n2) as [v2 r2]. cbn [snd] in C2.
  pose proof (rbr_get_bits_count r2 n3 H3) as C3. destruct (rbr_get_bits r2 n3) as [v3 r3]. cbn [snd] in *. lia.
Qed.

Theorem rbr_run_counts ops : forall r, Forall op_ok ops -> map snd (rbr_run r ops) = counts (rbr_bits_remaining r) ops.
Proof.
  induction ops as [|o t IH]; intros r Ho; [reflexivity|].
  inversion Ho as [|? ? H1 H2]; subst. cbn [rbr_run counts].
  destruct o as [n|[[n1 n2] n3]]; cbn [op_ok op_bits] in *.
  - pose proof (rbr_get_bits_count r n ltac:(lia)) as C. destruct (rbr_get_bits r n) as [v r1]. cbn [snd] in C.
    cbn [map snd]. rewrite (IH r1 H2), C. reflexivity.
  - destruct H1 as (A & B & C0).
    pose proof (rbr_triple_count r n1 n2 n3 ltac:(lia) ltac:(lia) ltac:(lia)) as C.
    destruct (rbr_get_bits_triple r n1 n2 n3) as [[[v1 v2] v3] r1]. cbn [snd] in C.
    cbn [map snd]. rewrite (IH r1 H2), C. reflexivity.
Qed.

(** [bits_remaining] is the quantity all "not enough bits" / "extra bits" decisions of the decoder are taken on *)
Corollary counters_agree src ops out : Forall op_ok ops -> brr_run (brr_new src) ops = ROk out ->
  map snd out = map snd (rbr_run (rbr_new src) ops).
Proof.
  intros Ho H. destruct (brr_new_inv src) as (HI & Hr).
  destruct (brr_run_ok ops (brr_new src) HI Ho) as (out' & E & M). rewrite E in H. injection H as <-.
  rewrite M, (rbr_run_counts ops (rbr_new src) Ho), Hr. unfold rbr_bits_remaining, rbr_new. cbn [r_left r_extra]. f_equal. lia.
Qed.
