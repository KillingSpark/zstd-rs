(** Small facts about helper functions of the model that many proof files need: bits of bytes, byte-list slicing
    ([zlen], [take_z], [drop_z]), point updates ([upd], [upd_n]) and the Kraft sum of a weight list. *)
Require Import Zrs.lib.RsPrelude Zrs.lib.ListFacts Zrs.model.BitIO Zrs.model.FseDec Zrs.model.HufEnc Zrs.model.BlockDec.
From Coq Require Import Permutation.

Lemma byte_bits_lsb_length n x : length (byte_bits_lsb n x) = n.
Proof. revert x. induction n as [|n IH]; intros x; cbn [byte_bits_lsb length]; [reflexivity|]. rewrite IH. reflexivity. Qed.

Lemma bits_of_bytes_length l : length (bits_of_bytes_lsb l) = (8 * length l)%nat.
Proof. unfold bits_of_bytes_lsb. induction l as [|x t IH]; [reflexivity|]. cbn [length flat_map]. rewrite app_length, byte_bits_lsb_length. lia. Qed.

Lemma zlen_nonneg (l : list Z) : 0 <= zlen l.
Proof. unfold zlen. lia. Qed.

Lemma zlen_app (a b : list Z) : zlen (a ++ b) = zlen a + zlen b.
Proof. unfold zlen. rewrite app_length. lia. Qed.

Lemma short_app (a b : list Z) : (zlen (a ++ b) <? zlen a) = false.
Proof. rewrite zlen_app. unfold zlen. lia. Qed.

Lemma take_app (a b : list Z) : take_z (zlen a) (a ++ b) = a.
Proof. unfold take_z, zlen. rewrite Nat2Z.id. apply split_at_length. Qed.

Lemma drop_app (a b : list Z) : drop_z (zlen a) (a ++ b) = b.
Proof. unfold drop_z, zlen. rewrite Nat2Z.id. apply split_at_length. Qed.

Lemma take_all n (l : list Z) : zlen l = n -> take_z n l = l.
Proof. unfold zlen, take_z. intros <-. rewrite Nat2Z.id. apply firstn_all. Qed.

Lemma drop_len n (l : list Z) : 0 <= n <= zlen l -> zlen (drop_z n l) = zlen l - n.
Proof. unfold zlen, drop_z. intros H. rewrite skipn_length. lia. Qed.

Lemma drop_z_app n (a b : list Z) : n <= Z.of_nat (length a) -> drop_z n (a ++ b) = drop_z n a ++ b.
Proof. intros H. apply split_app_le. lia. Qed.

Lemma repeat_z_length b n : length (repeat_z b n) = n.
Proof. induction n as [|n IH]; cbn [repeat_z length]; congruence. Qed.

Lemma raw_literals_decode ht lits :
  decode_literals {| ls_type := 0; ls_regen := zlen lits; ls_comp := None; ls_streams := None |} ht lits = ROk (ht, lits, zlen lits).
Proof.
  unfold decode_literals. cbn [ls_type ls_regen]. change (0 =? 0) with true. cbv iota.
  rewrite Z.ltb_irrefl, (take_all _ _ eq_refl). reflexivity.
Qed.

Lemma upd_length {A} (l : list A) : forall i v, length (upd l i v) = length l.
Proof. induction l as [|h t IH]; intros i v; destruct i; cbn [upd length]; try reflexivity. rewrite IH. reflexivity. Qed.

Lemma nth_upd {A} (d : A) (l : list A) : forall i j v,
  nth j (upd l i v) d = if ((j =? i) && (j <? length l))%nat then v else nth j l d.
Proof.
  induction l as [|h t IH]; intros i j v.
  - rewrite andb_false_r. destruct i; reflexivity.
  - destruct i; destruct j; cbn [upd nth]; try reflexivity. apply IH.
Qed.

Lemma nth_upd_eq {A} (l : list A) d i v : (i < length l)%nat -> nth i (upd l i v) d = v.
Proof. intros H. rewrite nth_upd, Nat.eqb_refl. apply Nat.ltb_lt in H. rewrite H. reflexivity. Qed.

Lemma nth_upd_neq {A} (l : list A) d i j v : i <> j -> nth j (upd l i v) d = nth j l d.
Proof. intros H. rewrite nth_upd. destruct (Nat.eqb_spec j i); [congruence|reflexivity]. Qed.

Lemma nth_z_upd (l : list Z) s v x : 0 <= s < Z.of_nat (length l) -> 0 <= x ->
  nth_z (upd l (Z.to_nat s) v) x = if x =? s then v else nth_z l x.
Proof.
  intros Hs Hx. unfold nth_z. destruct (Z.eqb_spec x s) as [->|Hn].
  - apply nth_upd_eq. lia.
  - apply nth_upd_neq. lia.
Qed.

Lemma Forall_upd {A} (P : A -> Prop) l : forall i v, Forall P l -> P v -> Forall P (upd l i v).
Proof. induction l as [|h t IH]; intros i v Hl Hv; destruct i; cbn [upd]; inversion Hl; subst; constructor; auto. Qed.

Lemma upd_n_upd l : forall i v, upd_n l i v = upd l i v.
Proof. induction l as [|h t IH]; intros [|i] v; cbn [upd_n upd]; try reflexivity. rewrite IH. reflexivity. Qed.

Lemma zeros_len n : length (zeros n) = n.
Proof. induction n; cbn [zeros length]; congruence. Qed.

Lemma nth_z_zeros n x : nth_z (zeros n) x = 0.
Proof. unfold nth_z. generalize (Z.to_nat x). intros k. revert k. induction n as [|n IH]; intros k; destruct k; cbn [zeros nth]; auto. Qed.

Lemma fse_build_from_probabilities_ext t1 t2 al probs : t_max_symbol t1 = t_max_symbol t2 ->
  fse_build_from_probabilities t1 al probs = fse_build_from_probabilities t2 al probs.
Proof. unfold fse_build_from_probabilities. intros ->. reflexivity. Qed.

Lemma fse_build_from_probabilities_max t al probs t' : fse_build_from_probabilities t al probs = ROk t' -> t_max_symbol t' = t_max_symbol t.
Proof.
  unfold fse_build_from_probabilities. destruct (al =? 0); [discriminate|].
  destruct (build_decoding_table _ _ _) as [[dec counter]|e|e]; cbn [rbind]; [|discriminate..]. intros [= <-]. reflexivity.
Qed.

Lemma kraft_cons w t : kraft (w :: t) = (if 0 <? w then 2 ^ (w - 1) else 0) + kraft t.
Proof. reflexivity. Qed.

Lemma kraft_app a b : kraft (a ++ b) = kraft a + kraft b.
Proof. induction a as [|x a IH]; cbn [app]; rewrite ?kraft_cons; [reflexivity|]. rewrite IH. lia. Qed.

Lemma kraft_nonneg ws : 0 <= kraft ws.
Proof.
  induction ws as [|w t IH]; [reflexivity|]. rewrite kraft_cons.
  destruct (0 <? w); [|lia]. pose proof (Z.pow_nonneg 2 (w - 1) ltac:(lia)). lia.
Qed.

Lemma kraft_ge w ws : In w ws -> 0 < w -> 2 ^ (w - 1) <= kraft ws.
Proof.
  intros Hin Hw. induction ws as [|v t IH]; [contradiction|]. rewrite kraft_cons. pose proof (kraft_nonneg t).
  destruct Hin as [->|Hin]; [assert (0 <? w = true) as -> by lia; lia|]. specialize (IH Hin).
  destruct (0 <? v); [|lia]. pose proof (Z.pow_nonneg 2 (v - 1) ltac:(lia)). lia.
Qed.

Lemma kraft_snoc ws lw : 0 < lw -> kraft (ws ++ [lw]) = kraft ws + 2 ^ (lw - 1).
Proof. intros H. rewrite kraft_app, kraft_cons. assert (0 <? lw = true) as -> by lia. change (kraft []) with 0. lia. Qed.

Lemma kraft_rev W : kraft (rev W) = kraft W.
Proof. induction W as [|w t IH]; [reflexivity|]. cbn [rev]. rewrite kraft_app, IH, !kraft_cons. change (kraft []) with 0. lia. Qed.

Lemma kraft_perm a b : Permutation a b -> kraft a = kraft b.
Proof. induction 1 as [|x l l' _ IH|x y l|l l' l'' _ IH1 _ IH2]; rewrite ?kraft_cons; lia. Qed.

Lemma kraft_filter W : kraft (filter (fun w => 0 <? w) W) = kraft W.
Proof.
  induction W as [|x t IH]; [reflexivity|]. cbn [filter]. destruct (0 <? x) eqn:E; rewrite !kraft_cons, ?E, IH; reflexivity.
Qed.
