(** C01 / C10: the block loop composes the blocks.  A frame body assembled from any list of blocks -- raw, RLE or
    compressed, each written with the format's block header, the last one flagged -- is decoded block by block: the
    scratch space after the loop is the one obtained by running the blocks in order, the frame is finished, the optional
    checksum is read, and what follows the frame is left unread.  With the block theorems (raw, RLE, compressed in any
    layout and modes) this composes whole frames; the compressor round trips (C02) are instances. *)
Require Import Zrs.lib.RsPrelude Zrs.lib.ResFacts Zrs.gen.Generated Zrs.model.Headers Zrs.model.BlockDec Zrs.model.FrameDec
  Zrs.model.FrameEnc.
Require Import Zrs.proofs.C15_Frame Zrs.proofs.C10_Prefix.
Open Scope Z_scope.

Record bitem := { bi_ty : Z; bi_size : nat; bi_payload : list Z }.
Definition bi_dsize (it : bitem) : Z := if (bi_ty it =? 0) || (bi_ty it =? 1) then Z.of_nat (bi_size it) else 0.
Definition bi_csize (it : bitem) : Z := if bi_ty it =? 1 then 1 else Z.of_nat (bi_size it).

Definition item_run (sc : scratch) (it : bitem) : res scratch :=
  match decode_block_content (bi_ty it) (bi_dsize it) (bi_csize it) sc (bi_payload it) with
  | ROk (sc', _, []) => ROk sc'
  | ROk _ => RErr "payload longer than the block"
  | RErr e => RErr e
  | RPanic e => RPanic e
  end.
Fixpoint items_run (sc : scratch) (items : list bitem) : res scratch :=
  match items with
  | [] => ROk sc
  | it :: t => let* sc' := item_run sc it in items_run sc' t
  end.

Fixpoint items_bytes (items : list bitem) : res (list Z) :=
  match items with
  | [] => ROk []
  | [it] => block_bytes (bi_ty it) (bi_size it) true (bi_payload it)
  | it :: t => let* b := block_bytes (bi_ty it) (bi_size it) false (bi_payload it) in
               let* r := items_bytes t in ROk (b ++ r)
  end.

Definition item_ok (it : bitem) : Prop := 0 <= bi_ty it <= 2 /\ Z.of_nat (bi_size it) <= 131072.

Lemma items_bytes_cons it t : t <> [] ->
  items_bytes (it :: t) = let* b := block_bytes (bi_ty it) (bi_size it) false (bi_payload it) in
                          let* r := items_bytes t in ROk (b ++ r).
Proof. destruct t; [congruence|reflexivity]. Qed.

(** every block takes at least its three header bytes: the fuel of [fdec_decode_blocks] suffices *)
Lemma items_bytes_length items : forall body, items_bytes items = ROk body -> (length items <= length body)%nat.
Proof.
  induction items as [|it t IH]; intros body H; [cbn [length]; lia|].
  destruct t as [|it2 t2].
  - apply block_bytes_len in H. cbn [length]. lia.
  - rewrite items_bytes_cons in H by discriminate.
    apply rbind_ok in H as (b & Eb & H). apply rbind_ok in H as (r & Er & [= <-]).
    apply block_bytes_len in Eb. apply IH in Er. rewrite app_length. cbn [length] in *. lia.
Qed.

Lemma block_reads_back sc it last b rest sc' :
  item_ok it -> block_bytes (bi_ty it) (bi_size it) last (bi_payload it) = ROk b -> item_run sc it = ROk sc' ->
  exists n, read_block_header_src (b ++ rest) = ROk (last, bi_ty it, bi_dsize it, bi_csize it, bi_payload it ++ rest) /\
            decode_block_content (bi_ty it) (bi_dsize it) (bi_csize it) sc (bi_payload it ++ rest) = ROk (sc', n, rest).
Proof.
  intros (Hty & Hsz) Hb Hrun.
  destruct (block_header_read (bi_ty it) (bi_size it) last (bi_payload it) rest Hty Hsz) as (hdr & E & _ & R).
  rewrite Hb in E. injection E as ->.
  unfold item_run in Hrun.
  destruct (decode_block_content _ _ _ sc (bi_payload it)) as [[[sc1 n] [|]]|e|e] eqn:Ec; try discriminate.
  injection Hrun as ->. exists n. split; [exact R|]. apply (decode_block_content_ext _ _ _ _ _ _ _ _ rest Ec).
Qed.

(** [ck] is the checksum field: four bytes if the frame header announces one, nothing otherwise *)
Theorem blocks_loop_composes items : forall fuel s body ck rest lb bb sc',
  items <> [] -> Forall item_ok items -> items_bytes items = ROk body -> items_run (fr_scratch s) items = ROk sc' ->
  (length items < fuel)%nat -> length ck = (if checksum_flag s then 4 else 0)%nat ->
  exists s', decode_blocks_loop fuel s (body ++ ck ++ rest) SAll lb bb = ROk (s', rest) /\
             fr_scratch s' = sc' /\ fr_finished s' = true /\ fr_header s' = fr_header s /\
             fr_blocks s' = fr_blocks s + Z.of_nat (length items) /\
             fr_checksum s' = if checksum_flag s then Some (le_val ck) else fr_checksum s.
Proof.
  induction items as [|it t IH]; intros fuel s body ck rest lb bb sc' Hne Hok Hb Hrun Hf Hck; [congruence|].
  destruct fuel as [|f]; [cbn in Hf; lia|]. inversion Hok as [|? ? Hit Hok']; subst.
  cbn [items_run] in Hrun. apply rbind_ok in Hrun as (sc1 & Er & Hrun).
  cbn [decode_blocks_loop].
  destruct t as [|it2 t2].
  - cbn [items_bytes] in Hb. injection Hrun as <-.
    destruct (block_reads_back _ _ _ _ (ck ++ rest) _ Hit Hb Er) as (n & -> & Ec).
    cbn [rbind fr_scratch set_scratch]. rewrite Ec. cbn [rbind].
    unfold checksum_flag in *. cbn [set_scratch fr_header].
    destruct (content_checksum_flag (fh_desc (fr_header s))).
    + replace 4 with (Z.of_nat (length ck)) by lia. rewrite read_exact_app.
      eexists. split; [reflexivity|]. cbn [finish set_scratch fr_scratch fr_finished fr_header fr_blocks fr_checksum length].
      repeat split. lia.
    + apply length_zero_iff_nil in Hck. subst ck.
      eexists. split; [reflexivity|]. cbn [finish set_scratch fr_scratch fr_finished fr_header fr_blocks fr_checksum length].
      repeat split. lia.
  - rewrite items_bytes_cons in Hb by discriminate.
    apply rbind_ok in Hb as (b & Eb & Hb). apply rbind_ok in Hb as (r & Et & [= <-]).
    rewrite <- app_assoc.
    destruct (block_reads_back _ _ _ _ (r ++ ck ++ rest) _ Hit Eb Er) as (n & -> & Ec).
    cbn [rbind fr_scratch set_scratch]. rewrite Ec. cbn [rbind].
    set (s1 := set_scratch (set_scratch s (fr_scratch s) 3 0) sc1 n 1).
    destruct (IH f s1 r ck rest lb bb sc') as (s' & -> & F1 & F2 & F3 & F4 & F5);
      [discriminate|exact Hok'|exact Et|exact Hrun|cbn [length] in *; lia|exact Hck|].
    exists s'. split; [reflexivity|]. split; [exact F1|]. split; [exact F2|]. split; [exact F3|]. split; [|exact F5].
    rewrite F4. unfold s1. cbn [set_scratch fr_blocks length]. lia.
Qed.

Lemma frame_blocks_decode d1 s items body ck rest sc' :
  fd_state d1 = Some s ->
  items <> [] -> Forall item_ok items -> items_bytes items = ROk body -> items_run (fr_scratch s) items = ROk sc' ->
  length ck = (if checksum_flag s then 4 else 0)%nat ->
  exists d2 s', fdec_decode_blocks d1 (body ++ ck ++ rest) SAll = ROk (d2, rest, true) /\ fd_state d2 = Some s' /\
    fr_scratch s' = sc' /\ fr_header s' = fr_header s /\ fr_blocks s' = fr_blocks s + Z.of_nat (length items) /\
    fr_checksum s' = if checksum_flag s then Some (le_val ck) else fr_checksum s.
Proof.
  intros Hs Hne Hok Hb Hrun Hck. unfold fdec_decode_blocks. rewrite Hs.
  pose proof (items_bytes_length _ _ Hb) as Hlen.
  destruct (blocks_loop_composes items (S (S (length (body ++ ck ++ rest)))) s body ck rest
              (db_len (sc_buf (fr_scratch s))) (fr_blocks s) sc' Hne Hok Hb Hrun) as (s' & -> & F1 & F2 & F3 & F4 & F5);
    [rewrite app_length; lia|exact Hck|].
  cbn [rbind]. rewrite F2. eexists _, s'. repeat split; assumption.
Qed.

Theorem frame_composes d hdr d1 ev s items body tail rest sc' :
  fdec_reset d hdr = ROk (d1, [], ev) -> fd_state d1 = Some s ->
  items <> [] -> Forall item_ok items -> items_bytes items = ROk body -> items_run (fr_scratch s) items = ROk sc' ->
  (if checksum_flag s then exists ck, tail = ck ++ rest /\ length ck = 4%nat else tail = rest) ->
  fdec_reset d (hdr ++ body ++ tail) = ROk (d1, body ++ tail, ev) /\
  exists d2 s', fdec_decode_blocks d1 (body ++ tail) SAll = ROk (d2, rest, true) /\ fd_state d2 = Some s' /\
    fr_scratch s' = sc' /\ fr_header s' = fr_header s /\ fr_blocks s' = fr_blocks s + Z.of_nat (length items) /\
    (checksum_flag s = true -> exists ck, tail = ck ++ rest /\ length ck = 4%nat /\ fr_checksum s' = Some (le_val ck)).
Proof.
  intros Hr Hs Hne Hok Hb Hrun Htail.
  split; [apply (fdec_reset_ext _ _ _ _ _ (body ++ tail) Hr)|].
  assert (Hck : exists ck, tail = ck ++ rest /\ length ck = (if checksum_flag s then 4 else 0)%nat).
  { destruct (checksum_flag s); [exact Htail|exists []; split; [exact Htail|reflexivity]]. }
  destruct Hck as (ck & -> & Lck).
  destruct (frame_blocks_decode d1 s items body ck rest sc' Hs Hne Hok Hb Hrun Lck) as (d2 & s' & Ed & Es & F1 & F2 & F3 & F4).
  exists d2, s'. repeat split; try assumption.
  intros Eck. rewrite Eck in *. exists ck. repeat split; assumption.
Qed.
