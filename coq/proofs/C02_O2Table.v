(** C02 / C16: obligation O2 reduced to a comparison of bytes.  If the literals section the compressor writes is the
    section of the model -- header, table description, four streams coded with the code read off the table the DECODER
    builds from that description (or, treeless, off the table the decoder already holds) -- then it meets O2 ([lit_ok]):
    the decoder reads back exactly the literals.  No condition on the table remains: all of them hold for every table
    (C13_Canonical / C02_HufSide). *)
Require Import Zrs.lib.RsPrelude Zrs.gen.Generated Zrs.model.HufDec Zrs.model.BlockDec Zrs.model.LitEnc.
Require Import Zrs.proofs.C13_Stream Zrs.proofs.C13_LitSection Zrs.proofs.C02_HufSide Zrs.proofs.C02_Concrete Zrs.proofs.C02_HufBlock.
Open Scope Z_scope.

Definition deliverable (t : huf_table) (lits : list Z) : Prop :=
  Forall (fun s => exists i, 0 <= i < 2 ^ ht_max_bits t /\ h_sym (nth_h (ht_decode t) i) = s) lits.
(** a table that came out of the decoder's builder, with at most 255 explicit weights *)
Definition built (t : huf_table) : Prop :=
  (exists ht0 src used, huf_build_decoder ht0 src = ROk (t, used)) /\ Forall (fun w => 0 <= w) (ht_weights t) /\ (length (ht_weights t) <= 255)%nat.

Theorem model_section_meets_O2 h t ty desc lits :
  built t -> deliverable t lits -> 16 <= Z.of_nat (length lits) <= 131072 ->
  let code := code_of_dec t in
  let payload := desc ++ huf4_bytes code lits in
  (ty = 2 /\ huf_build_decoder h payload = ROk (t, zlen desc)) \/ (ty = 3 /\ desc = [] /\ h = t) ->
  zlen payload < zlen lits ->
  lit_ok h lits (huf_lit_header ty (zlen lits) (zlen payload)) payload t.
Proof.
  intros ((ht0 & src & used & Hb) & Hw & Hl) Hdel Hn code payload Hty Hpl.
  destruct (built_table_sides ht0 src t used lits Hb Hw Hl (proj2 Hn) Hdel) as (Hts & Hall & Hs).
  destruct (split4 lits) as [[[a b] c] d] eqn:Esp.
  destruct (table_side_b_sound _ _ Hts) as (HM & HM1 & Hlen). set (Mn := Z.to_nat (ht_max_bits t)) in *.
  assert (Hok : Forall (code_ok Mn code) lits) by (apply Forall_forall; intros s Hs'; apply code_ok_b_sound, (Hall s Hs')).
  assert (Hres : Forall (resolves t Mn code) lits).
  { apply Forall_forall. intros s Hs'. destruct (Hall s Hs') as [A B]. apply resolves_b_sound; [apply code_ok_b_sound; exact A|exact B]. }
  assert (H16 : (16 <= length lits)%nat) by lia.
  exact (huffman_section_read_back t Mn code lits a b c d ty desc h HM HM1 Hlen H16 Esp Hok Hres Hs Hty Hpl
           ltac:(change MAX_BLOCK_SIZE with 131072; unfold zlen; lia)).
Qed.
