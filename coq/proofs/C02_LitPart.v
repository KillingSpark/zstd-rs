(** C02 / C13: obligation O2 for the compressor's own literals section.  First from the literals alone
    ([compressor_huffman_section]): the table of [build_from_data], the description [write_table] writes for the weights
    it derives back from the code lengths (direct for up to 16 written weights, FSE-compressed above that) and the four
    streams coded with that table form a section the decoder reads back as exactly the literals; for the FSE-compressed
    form one fact about the compressor remains a hypothesis there: the compressed description is shorter than 128 bytes
    (the compressor asserts it; the header byte could not express more).  Then block by block: [literals_part]
    (model/LitComp.v) is the literals part of [compress_block] with [compress_literals]: raw literals, Huffman-coded
    literals with a new table or with the remembered table of an earlier block (treeless).  Whatever table the
    compressor remembers -- provided the decoder holds the table built from the description that table was written
    with -- the section it writes is read back as exactly the literals, and the same relation holds afterwards. *)
Require Import Zrs.lib.RsPrelude Zrs.proofs.ModelFacts Zrs.gen.Generated Zrs.model.BitStream Zrs.model.FseDec Zrs.model.HufDec Zrs.model.BlockDec Zrs.model.LitEnc Zrs.model.BlockEnc Zrs.model.HufEnc Zrs.model.SeqEnc Zrs.model.FseEnc Zrs.model.FseNorm Zrs.model.WeightEnc Zrs.model.HufCounts Zrs.model.LitComp.
Require Import Zrs.proofs.C13_EncCanon Zrs.proofs.C13_EncWeights Zrs.proofs.C13_Direct Zrs.proofs.C13_WeightDesc.
Require Import Zrs.proofs.C02_Concrete Zrs.proofs.C02_O2Table Zrs.proofs.C02_O2Huffman Zrs.proofs.C02_O2Counts.
Open Scope Z_scope.

Definition complete_for (ws : list Z) (lw M : Z) (codes : codes_t) : Prop :=
  Forall (fun w => 0 <= w <= MAX_MAX_NUM_BITS) ws /\ (length ws <= 255)%nat /\ 1 <= lw <= M /\ M <= MAX_MAX_NUM_BITS /\
  0 < kraft ws /\ kraft (ws ++ [lw]) = 2 ^ M /\ enc_build_from_weights (ws ++ [lw]) = ROk codes.

(** the table the compressor remembers is the code of the weights the decoder's table was built from *)
Definition tab_rel (last : option codes_t) (h : huf_table) : Prop :=
  forall codes, last = Some codes -> built h /\ exists lw M, complete_for (ht_weights h) lw M codes.
Definition hinv (h : huf_table) : Prop := t_max_symbol (ht_fse h) = 255.

Lemma complete_for_iff ws lw M codes : complete_for ws lw M codes <-> complete_weights ws lw M /\ enc_build_from_weights (ws ++ [lw]) = ROk codes.
Proof. unfold complete_for, complete_weights. tauto. Qed.

Lemma written_weights ws lw M : complete_weights ws lw M ->
  (1 <= length ws <= 255)%nat /\ Forall (fun w => 0 <= w <= 11) ws /\ 1 <= zmax_list ws.
Proof.
  intros (Hw & Hl & _ & _ & Hpos & _). split; [|split; [exact Hw|]].
  - destruct ws; [cbn in Hpos|cbn [length] in *]; lia.
  - (* the Kraft sum is positive: some written weight is *)
    induction Hw as [|w t _ _ IH]; [cbn in Hpos; lia|]. rewrite kraft_cons in Hpos.
    change (zmax_list (w :: t)) with (Z.max w (zmax_list t)). destruct (Z.ltb_spec 0 w); [lia|]. cbn [length] in Hl. specialize (IH ltac:(lia) ltac:(lia)). lia.
Qed.

Lemma compressed_description_reads_back h ws al probs d rest : hinv h -> (2 <= length ws <= 257)%nat ->
  Forall (fun w => 0 <= w <= 11) ws -> 1 <= zmax_list ws ->
  norm_counts (weight_hist ws) 6 true = ROk (al, probs) -> desc_bytes al probs = Some d ->
  exists D, fse_build_from_probabilities (ht_fse h) al probs = ROk D /\
    let stream := stream_bytes (weight_fields (enc_of_dec D) ws) in
    let hb := zlen d + zlen stream in
    hb < 128 -> read_weights h ((hb :: d ++ stream) ++ rest) = ROk (ws, D, zlen (hb :: d ++ stream)).
Proof.
  intros Hinv Hl Hw Hz Hnorm Hdesc.
  destruct (model_weight_description_roundtrip h ws al probs d rest Hinv Hl ltac:(eapply Forall_impl; [|exact Hw]; cbv beta; lia) Hz Hnorm Hdesc) as (D & ED & Hread).
  exists D. split; [exact ED|]. cbv zeta in *. intros Hhb. cbn [app]. rewrite <- app_assoc, (Hread Hhb).
  do 2 f_equal. unfold zlen. cbn [length]. rewrite app_length. lia.
Qed.

Theorem compressor_huffman_section data a b h :
  Forall (fun s => 0 <= s <= 255) data -> In a data -> In b data -> a <> b ->
  16 <= zlen data <= 131072 ->
  exists codes, build_from_data data = ROk codes /\
    let written := removelast (enc_weights codes) in
    (1 <= length written <= 255)%nat /\
    ((length written <= 16)%nat ->
       let payload := direct_desc written ++ huf4_bytes (code_fn codes) data in
       zlen payload < zlen data ->
       exists t, lit_ok h data (huf_lit_header 2 (zlen data) (zlen payload)) payload t) /\
    ((16 < length written)%nat -> t_max_symbol (ht_fse h) = 255 ->
       exists al probs d D, norm_counts (weight_hist written) 6 true = ROk (al, probs) /\ desc_bytes al probs = Some d /\
         fse_build_from_probabilities (ht_fse h) al probs = ROk D /\
         let stream := stream_bytes (weight_fields (enc_of_dec D) written) in
         let hb := zlen d + zlen stream in
         hb < 128 ->
         let payload := (hb :: d ++ stream) ++ huf4_bytes (code_fn codes) data in
         zlen payload < zlen data ->
         exists t, lit_ok h data (huf_lit_header 2 (zlen data) (zlen payload)) payload t).
Proof.
  intros Hbytes Ha Hb Hab Hlen.
  destruct (build_from_data_spec data a b Hbytes Ha Hb Hab) as (ws & lw & M & codes & Ecodes & Henc & EW & Hc & Hhas).
  destruct (written_weights ws lw M Hc) as (Lws & Hw11 & Hz).
  (* whichever description is read back as [ws], the section is read back as the literals *)
  assert (Hall : forall desc ft, let payload := desc ++ huf4_bytes (code_fn codes) data in
            read_weights h payload = ROk (ws, ft, zlen desc) -> zlen payload < zlen data ->
            exists t, lit_ok h data (huf_lit_header 2 (zlen data) (zlen payload)) payload t).
  { intros desc ft payload Hrw Hshort.
    destruct (complete_weights_section_meets_O2 ws lw M codes Hc Henc h desc data ft Hhas Hlen Hrw Hshort) as (t & Hok & _). exists t. exact Hok. }
  exists codes. split; [exact Ecodes|]. cbv zeta. rewrite EW, removelast_last. split; [exact Lws|]. split.
  - intros Hfew. apply (Hall (direct_desc ws) (ht_fse h)).
    apply (direct_description_roundtrip h ws _ ltac:(lia)). eapply Forall_impl; [|exact Hw11]. cbv beta. lia.
  - intros Hmany Hsym.
    destruct (weight_description_exists ws ltac:(lia) Hw11 Hz) as (al & probs & d & Hnorm & Hdesc).
    destruct (compressed_description_reads_back h ws al probs d (huf4_bytes (code_fn codes) data) Hsym ltac:(lia) Hw11 Hz Hnorm Hdesc) as (D & ED & Hread).
    exists al, probs, d, D. split; [exact Hnorm|]. split; [exact Hdesc|]. split; [exact ED|]. cbv zeta in *. intros Hhb. apply (Hall _ D), Hread, Hhb.
Qed.

Lemma write_table_reads_back h ws lw M codes desc : hinv h -> enc_weights codes = ws ++ [lw] -> complete_weights ws lw M ->
  write_table_model codes = ROk desc ->
  forall rest, exists ft, read_weights h (desc ++ rest) = ROk (ws, ft, zlen desc) /\ t_max_symbol ft = 255.
Proof.
  intros Hinv EW Hc Hwt rest. destruct (written_weights ws lw M Hc) as (Lws & Hw11 & Hz).
  unfold write_table_model in Hwt. rewrite EW, removelast_last in Hwt.
  destruct (Nat.ltb_spec 16 (length ws)) as [Hmany|Hfew].
  - destruct (norm_counts (weight_hist ws) 6 true) as [[al probs]|e|e] eqn:En; cbn [rbind] in Hwt; try discriminate.
    destruct (desc_bytes al probs) as [d|] eqn:Ed; [|discriminate].
    destruct (fse_build_from_probabilities (fse_new 255) al probs) as [D|e|e] eqn:ED; cbn [rbind] in Hwt; try discriminate.
    destruct (Z.leb_spec 128 (zlen d + zlen (stream_bytes (weight_fields (enc_of_dec D) ws)))) as [|Hhb]; [discriminate|].
    injection Hwt as <-.
    destruct (compressed_description_reads_back h ws al probs d rest Hinv ltac:(lia) Hw11 Hz En Ed) as (D' & ED' & Hread).
    (* the compressor builds its table with a new FSE table, the decoder with the one it holds: same symbol limit *)
    rewrite <- (fse_build_from_probabilities_ext (fse_new 255) (ht_fse h) al probs (eq_sym Hinv)), ED in ED'. injection ED' as <-.
    exists D. split; [exact (Hread Hhb)|exact (fse_build_from_probabilities_max _ _ _ _ ED)].
  - injection Hwt as <-. exists (ht_fse h). split; [|exact Hinv].
    apply (direct_description_roundtrip h ws rest ltac:(lia)). eapply Forall_impl; [|exact Hw11]. cbv beta. lia.
Qed.

Lemma literals_part_cases prev lits hdr payload last' : literals_part prev lits = ROk (hdr, payload, last') ->
  (hdr = raw_lit_header (zlen lits) /\ payload = lits /\ last' = prev) \/
  1024 < zlen lits /\ single_symbol lits = false /\
  exists fresh codes desc ty, build_from_data lits = ROk fresh /\
    (ty = 2 /\ codes = fresh /\ write_table_model fresh = ROk desc /\ last' = Some fresh \/
     ty = 3 /\ prev = Some codes /\ (exists diff, can_encode codes fresh = Some diff) /\ desc = [] /\ last' = prev) /\
    payload = desc ++ huf4_bytes (code_fn codes) lits /\ hdr = huf_lit_header ty (zlen lits) (zlen payload) /\ zlen payload < zlen lits.
Proof.
  unfold literals_part. destruct ((zlen lits <=? 1024) || single_symbol lits) eqn:Esmall.
  { intros E. injection E as <- <- <-. left. repeat split. }
  apply orb_false_iff in Esmall as [Hbig Hsingle].
  destruct (build_from_data lits) as [fresh|e|e]; cbn [rbind]; try discriminate.
  (* the choice of the table, then what both choices share *)
  set (choice := match prev with Some t => _ | None => _ end).
  assert (Hch : (snd choice = true /\ fst choice = fresh) \/ (snd choice = false /\ prev = Some (fst choice) /\ exists diff, can_encode (fst choice) fresh = Some diff)).
  { unfold choice. destruct prev as [t|]; [destruct (can_encode t fresh) as [diff|] eqn:Ecan; [destruct (5 <? diff)|]|]; cbn [fst snd];
      [left|right; split; [|split; [|exists diff; exact Ecan]]|left|left]; repeat split. }
  clearbody choice. destruct choice as [codes nt]. cbn [fst snd] in Hch.
  destruct (262144 <=? zlen lits); [discriminate|].
  destruct (if nt then write_table_model codes else ROk []) as [desc|e|e] eqn:Edesc; cbn [rbind]; try discriminate.
  destruct (split4 lits) as [[[a b] c] d].
  match goal with |- (if ?c then _ else _) = _ -> _ => destruct c; [discriminate|] end.
  match goal with |- (if ?n <=? ?x then _ else _) = _ -> _ => destruct (Z.leb_spec n x) as [|Hlt]; intros E; injection E as <- <- <- end.
  { left. repeat split. }
  right. split; [lia|]. split; [exact Hsingle|]. exists fresh, codes, desc, (if nt then 2 else 3). split; [reflexivity|]. split.
  - destruct Hch as [(-> & ->)|(-> & -> & Hd)]; [left|right; injection Edesc as <-]; repeat split; assumption.
  - split; [reflexivity|]. split; [reflexivity|]. pose proof (zlen_nonneg (huf_lit_header (if nt then 2 else 3) (zlen lits) (zlen (desc ++ huf4_bytes (code_fn codes) lits)))). lia.
Qed.

Lemma can_encode_loop_covers : forall self other sum d, can_encode_loop self other sum = Some d ->
  forall i, (i < length other)%nat -> (i < length self)%nat -> snd (nth i other (0, 0)) <> 0 -> snd (nth i self (0, 0)) <> 0.
Proof.
  induction self as [|s st IH]; intros other sum d H i Hi Hs; [cbn [length] in Hs; lia|].
  destruct other as [|o ot]; [cbn [length] in Hi; lia|]. cbn [can_encode_loop] in H.
  destruct (negb (snd o =? 0) && (snd s =? 0)) eqn:E; [discriminate|].
  destruct i as [|i]; cbn [nth length] in *.
  - intros Ho Hz. rewrite Hz in E. destruct (Z.eqb_spec (snd o) 0); [congruence|]. cbn in E. discriminate.
  - apply (IH ot _ d H i); lia.
Qed.

Lemma complete_code_lengths ws lw M codes : complete_weights ws lw M -> enc_build_from_weights (ws ++ [lw]) = ROk codes ->
  length codes = S (length ws) /\
  forall s, 0 <= s <= Z.of_nat (length ws) -> snd (nth (Z.to_nat s) codes (0, 0)) <> 0 <-> 0 < nth (Z.to_nat s) (ws ++ [lw]) 0.
Proof.
  intros Hc Henc. pose proof (complete_weights_range ws lw M Hc) as HW. destruct Hc as (_ & _ & Hlw & _ & _ & Hk).
  set (W := ws ++ [lw]) in *. assert (LW : length W = S (length ws)) by (unfold W; rewrite app_length; cbn [length]; lia).
  assert (HW' : Forall (fun w => 0 <= w <= Z.of_nat (Z.to_nat M)) W) by (eapply Forall_impl; [|exact HW]; cbv beta; lia).
  split; [rewrite (enc_codes_length W _ codes HW' Henc); exact LW|]. intros s Hs.
  assert (Hs' : 0 <= s < Z.of_nat (length W)) by lia.
  rewrite Forall_forall in HW. assert (Hw : 0 <= nth (Z.to_nat s) W 0 <= M) by (apply HW, nth_In; lia).
  pose proof (enc_codes_closed_form W _ codes HW' Henc s Hs') as CF. pose proof (enc_codes_unused W _ codes HW' Henc s Hs') as UN.
  cbv zeta in CF. rewrite (nth_indep W (-1) 0) in CF, UN by lia. rewrite Hk, Z.log2_pow2 in CF by lia.
  destruct (Z.lt_ge_cases 0 (nth (Z.to_nat s) W 0)) as [Hp|Hz].
  - rewrite (CF Hp). cbn [snd]. lia.
  - rewrite UN by lia. cbn [snd]. lia.
Qed.

Lemma single_symbol_false lits : single_symbol lits = false -> exists a b, In a lits /\ In b lits /\ a <> b.
Proof.
  destruct lits as [|x t]; [discriminate|]. cbn [single_symbol]. intros H.
  assert (exists y, In y t /\ y <> x) as (y & Hy & Hne).
  { induction t as [|y u IH]; [discriminate|]. cbn [forallb] in H. destruct (Z.eqb_spec x y) as [->|Hn]; cbn [andb] in H.
    - destruct (IH H) as (z & Hz & Hzn). exists z. split; [right; exact Hz|exact Hzn].
    - exists y. split; [left; reflexivity|congruence]. }
  exists x, y. split; [left; reflexivity|]. split; [right; exact Hy|congruence].
Qed.

(** a new table: for the code of ANY complete weight list, the section with the description [write_table] writes is
    read back, and the decoder then holds the table that code belongs to *)
Theorem written_table_section_meets_O2 h ws lw M codes desc lits :
  hinv h -> complete_weights ws lw M -> enc_build_from_weights (ws ++ [lw]) = ROk codes -> enc_weights codes = ws ++ [lw] ->
  write_table_model codes = ROk desc -> Forall (has_code ws lw) lits -> 16 <= Z.of_nat (length lits) <= 131072 ->
  let payload := desc ++ huf4_bytes (code_fn codes) lits in
  zlen payload < zlen lits ->
  exists t, lit_ok h lits (huf_lit_header 2 (zlen lits) (zlen payload)) payload t /\ tab_rel (Some codes) t /\ hinv t.
Proof.
  intros Hinv Hc Henc EW Edesc Hhas Hn payload Hshort.
  destruct (write_table_reads_back h ws lw M codes desc Hinv EW Hc Edesc (huf4_bytes (code_fn codes) lits)) as (ft & Hrw & Hft).
  destruct (complete_weights_section_meets_O2 ws lw M codes Hc Henc h desc lits ft Hhas Hn Hrw Hshort) as (t & Hok & Hbt & Ew & Ef).
  exists t. split; [exact Hok|]. split; [|unfold hinv; rewrite Ef; exact Hft].
  intros c Ec. injection Ec as <-. split; [exact Hbt|]. exists lw, M. rewrite Ew. apply complete_for_iff. split; assumption.
Qed.

(** the remembered table: it has a code wherever the code of the new weights [ws ++ [lw]] has one, so for every literal *)
Theorem remembered_table_section_meets_O2 h codes ws lw M fresh diff lits :
  tab_rel (Some codes) h -> complete_weights ws lw M -> enc_build_from_weights (ws ++ [lw]) = ROk fresh ->
  can_encode codes fresh = Some diff -> Forall (has_code ws lw) lits -> 16 <= Z.of_nat (length lits) <= 131072 ->
  let payload := huf4_bytes (code_fn codes) lits in
  zlen payload < zlen lits -> lit_ok h lits (huf_lit_header 3 (zlen lits) (zlen payload)) payload h.
Proof.
  intros Hrel Hc Henc Ecan Hhas Hn. destruct (Hrel codes eq_refl) as (Hbuilt & lwt & Mt & Hct). apply complete_for_iff in Hct as (Hct & Henct).
  apply (treeless_for_complete_weights h lwt Mt codes Hbuilt Hct Henct lits); [|exact Hn].
  destruct (complete_code_lengths _ _ _ _ Hc Henc) as (Lf & Hf). destruct (complete_code_lengths _ _ _ _ Hct Henct) as (Lt & Ht).
  unfold can_encode in Ecan. destruct (Nat.ltb_spec (length codes) (length fresh)) as [|Hle]; [discriminate|].
  eapply Forall_impl; [|exact Hhas]. intros s (Hs & Hpos).
  assert (Hs' : 0 <= s <= Z.of_nat (length (ht_weights h))) by lia. split; [exact Hs'|]. apply (Ht s Hs').
  apply (can_encode_loop_covers codes fresh 0 diff Ecan); [lia|lia|]. apply (Hf s Hs). exact Hpos.
Qed.

Theorem literals_part_meets_O2 prev lits h hdr payload last' :
  tab_rel prev h -> hinv h -> Forall (fun s => 0 <= s <= 255) lits -> zlen lits <= MAX_BLOCK_SIZE ->
  literals_part prev lits = ROk (hdr, payload, last') ->
  exists ht', lit_ok h lits hdr payload ht' /\ tab_rel last' ht' /\ hinv ht'.
Proof.
  intros Hrel Hinv Hbytes Hlen H.
  destruct (literals_part_cases _ _ _ _ _ H) as [(-> & -> & ->)|(Hbig & Hsingle & fresh & codes & desc & ty & Efresh & Hcase & -> & -> & Hshort)].
  { exists h. split; [apply raw_lit_ok; exact Hlen|split; assumption]. }
  assert (Hn : 16 <= Z.of_nat (length lits) <= 131072) by (change MAX_BLOCK_SIZE with 131072 in Hlen; unfold zlen in *; lia).
  destruct (single_symbol_false lits Hsingle) as (a & b & Ha & Hb & Hab).
  destruct (build_from_data_spec lits a b Hbytes Ha Hb Hab) as (ws & lw & M & fresh' & Efresh' & Henc & EW & Hc & Hhas).
  rewrite Efresh in Efresh'. injection Efresh' as <-.
  destruct Hcase as [(-> & -> & Edesc & ->)|(-> & -> & (diff & Ecan) & -> & ->)].
  - exact (written_table_section_meets_O2 h ws lw M fresh desc lits Hinv Hc Henc EW Edesc Hhas Hn Hshort).
  - exists h. split; [|split; assumption].
    exact (remembered_table_section_meets_O2 h codes ws lw M fresh diff lits Hrel Hc Henc Ecan Hhas Hn Hshort).
Qed.
