(** C16: compression is correct for EVERY well-behaved matcher.  The matcher is a parameter: any state type, step
    function and invariant meeting the contract of the property -- each block's report consists of matches (length at
    least 3, distance at least 1, within the advertised window and the bytes retained) with their preceding literals
    followed by at most one trailing literal run, and rebuilds the block from the retained bytes ([apply_seqs]).
    Everything else is as in C02_Concrete.v: the split into literal buffer and triples, the sequences part with the
    modelled normaliser (obligation O1 proved), any literals encoder meeting O2.  The built-in match finder is one
    instance (C17). *)
Require Import Zrs.lib.RsPrelude Zrs.gen.Generated Zrs.model.HufDec Zrs.model.BlockDec Zrs.model.FrameDec Zrs.model.FrameEnc
  Zrs.model.Matcher.
Require Import Zrs.model.BlockEnc Zrs.model.SeqNorm.
Require Import Zrs.proofs.C17_Matcher Zrs.proofs.C17_Shape Zrs.proofs.C02_Roundtrip Zrs.proofs.C02_Concrete Zrs.proofs.C02_O1.
Open Scope Z_scope.

(** what the property demands of a reported match; it is [match_within], with which C02_Concrete.v states the contract *)
Definition match_ok (w : nat) (s : mseq) : Prop :=
  match s with MLit _ => True | MTriple _ off ml => (1 <= off <= w)%nat /\ (3 <= ml)%nat end.

Record ucst (M : Type) := { u_m : M; u_ht : option huf_table }.
Arguments u_m {M}. Arguments u_ht {M}.

Section AnyMatcher.
  Variable M : Type.
  Variable mrun : M -> list Z -> bool -> res (M * option (list mseq)).   (* commit a block, then start_matching / skip_matching *)
  Variable mreset : M -> M.
  Variable MI : M -> Prop.
  Variable mret : M -> list Z.          (* the bytes the matcher may still refer to *)
  Variable mwin : M -> nat.             (* its advertised window *)
  Hypothesis contract : meets_contract mrun MI mret mwin.
  Hypothesis reset_contract : forall m, MI m -> MI (mreset m) /\ mwin (mreset m) = mwin m /\ mret (mreset m) = [].

  Variable litenc : option huf_table -> list Z -> list Z * list Z * option huf_table.
  Hypothesis O2 : forall o lits h, (forall t, o = Some t -> h = t) -> zlen lits <= MAX_BLOCK_SIZE ->
    let '(hdr, payload, o') := litenc o lits in
    exists ht', lit_ok h lits hdr payload ht' /\ (forall t, o' = Some t -> ht' = t).

  Definition ublock (cs : ucst M) (blk : list Z) : list Z * ucst M :=
    match mrun (u_m cs) blk false with
    | ROk (m', Some ms) =>
        let lits := mseqs_lits ms in
        let seqs := mseqs_seqs ms in
        let '(hdr, payload, o') := litenc (u_ht cs) lits in
        let '(dl, do, dm) := norm_model seqs in
        match seq_part dl do dm seqs with
        | ROk sp => (hdr ++ payload ++ sp, {| u_m := m'; u_ht := o' |})
        | _ => ([], {| u_m := m'; u_ht := o' |})
        end
    | _ => ([], cs)
    end.
  Definition uskip (cs : ucst M) (blk : list Z) : ucst M :=
    match mrun (u_m cs) blk true with
    | ROk (m', _) => {| u_m := m'; u_ht := u_ht cs |}
    | _ => cs
    end.
  Definition ufallback (cs : ucst M) : ucst M := {| u_m := u_m cs; u_ht := None |}.
  Definition ureset (cs : ucst M) : ucst M := {| u_m := mreset (u_m cs); u_ht := None |}.

  Definition UInit (cs : ucst M) : Prop := MI (u_m cs) /\ 131072 <= Z.of_nat (mwin (u_m cs)) < 2 ^ 31.

  (** level Fastest through ANY well-behaved matcher: every input, every fragmentation of the reads, every block size
      up to 128 KiB, every reuse history: the frame decodes completely to the input *)
  Theorem any_matcher_roundtrip slice wsize hash32 cs data script frame cs' r' :
    UInit cs -> 1 <= Z.of_nat slice <= 131072 -> 1 <= wsize <= 2 ^ 27 ->
    (forall h x, hash32 = Some h -> length (h x) = 4%nat) ->
    compress_frame (ucst M) ublock uskip ufallback ureset LFastest slice wsize hash32 cs
      {| rd_data := data; rd_script := script |} = ROk (frame, cs', r') ->
    frame_decodes_to frame data hash32.
  Proof.
    exact (any_encoder_roundtrip M mrun mreset MI mret mwin contract reset_contract
             norm_model norm_model_meets_O1 (option huf_table) None same_table same_table_none same_table_init litenc O2
             (ucst M) u_m u_ht (Build_ucst M) (fun _ _ => eq_refl) (fun _ _ => eq_refl) slice wsize hash32 cs data script frame cs' r').
  Qed.
End AnyMatcher.

(** the contract is satisfiable: the built-in match finder (model/Matcher.v, property C17) meets it *)
Lemma builtin_meets_contract : forall m data skip, DInv m -> (length data <= max_window m)%nat ->
  exists m' out, mstep m (OpBlock data skip) = ROk (m', out) /\ DInv m' /\ max_window m' = max_window m /\
    exists dropped H, retained m = dropped ++ H /\ retained m' = H ++ data /\
      if skip then out = None
      else exists seqs, out = Some seqs /\ apply_seqs H seqs = Some (H ++ data) /\ Forall (match_ok (max_window m)) seqs /\ block_shape seqs.
Proof. exact builtin_contract. Qed.
Lemma builtin_reset_contract : forall m, DInv m -> DInv (mgd_reset m) /\ max_window (mgd_reset m) = max_window m /\ retained (mgd_reset m) = [].
Proof. exact builtin_reset_spec. Qed.
