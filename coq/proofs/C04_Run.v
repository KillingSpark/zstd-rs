(** C04: the byte-queue specification, the per-operation theorem and its lift to all operation sequences. *)
From Coq Require Import Lia ZArith List.
Import ListNotations.
From Coq Require Import ZifyBool.
Require Import Zrs.model.RingBuffer Zrs.proofs.C04_Basics Zrs.proofs.C04_Within Zrs.proofs.C04_Append Zrs.proofs.C04_Ops.

(** the specification: a plain byte queue *)
Inductive qstep : list Z -> op -> list Z -> Prop :=
| q_extend q d : qstep q (OExtend d) (q ++ d)
| q_fill q b n : qstep q (OFill b n) (q ++ repeat b n)
| q_reader_fail q n r1 r2 : qstep q (OReader n r1 r2) q
| q_reader_ok q n r1 r2 data : length data = n -> qstep q (OReader n r1 r2) (q ++ data)
| q_drop q n : qstep q (ODrop n) (skipn (Nat.min n (length q)) q)
| q_reserve q n : qstep q (OReserve n) q
| q_clear q : qstep q OClear []
| q_within q st n : st + n <= length q -> qstep q (OWithin st n) (q ++ firstn n (skipn st q)).

Inductive qrun : list Z -> list op -> list Z -> Prop :=
| qrun_nil q : qrun q [] q
| qrun_cons q o q1 ops q2 : qstep q o q1 -> qrun q1 ops q2 -> qrun q (o :: ops) q2.

(** contract of the reader oracle: a successful [read_exact] filled the slice it was given *)
Definition op_contract (o : op) : Prop :=
  match o with
  | OReader n r1 r2 => (forall d, r1 = Some d -> n <= length d) /\ (forall d, r2 = Some d -> n <= length d)
  | _ => True
  end.

(** documented preconditions (outside them the Rust code panics; it still never faults) *)
Definition op_pre (s : rb) (o : op) : Prop :=
  match o with
  | ODrop _ => 0 < cap s
  | OWithin st n => st + n <= len s /\ (0 < cap s \/ 0 < n)
  | _ => True
  end.

Lemma within_cap0_panics k s : Inv s -> cap s = 0 -> 1 <= k ->
  exists e, extend_from_within_unchecked k s 0 0 = Panic e.
Proof.
  intros (HZ & _ & _) Z0 Hk. destruct (HZ Z0) as [h0 t0]. destruct s as [c h t m]. cbn [cap head tail] in *. subst c h t.
  unfold extend_from_within_unchecked. cbn [cap head tail mem Nat.ltb Nat.leb Nat.add Nat.sub Nat.min].
  destruct (copy_over_ok k m 0 0 0 0 0 0 Hk) as (m1 & E1 & _); try lia.
  rewrite E1. unfold advance_tail. cbn [cap Nat.eqb]. eauto.
Qed.

Theorem step_ok k s o : 1 <= k -> Inv s -> op_contract o ->
  (exists s', step k s o = Done s' /\ Inv s' /\ qstep (abs s) o (abs s')) \/
  (exists e, step k s o = Panic e /\ ~ op_pre s o).
Proof.
  intros Hk HI HC. destruct o as [d|b n|n r1 r2|n|n| |st n]; cbn [step].
  - left. destruct (extend_ok s d HI) as (s' & E & I' & L' & A'). exists s'. rewrite A'. split; [assumption|]. split; [assumption|]. constructor.
  - left. destruct (fill_ok s b n HI) as (s' & E & I' & L' & A'). exists s'. rewrite A'. split; [assumption|]. split; [assumption|]. constructor.
  - left. destruct HC as [R1 R2]. destruct (reader_ok s n r1 r2 HI R1 R2) as (s' & ok & E & I' & F & T).
    exists s'. rewrite E. cbn [bind fst]. split; [reflexivity|]. split; [exact I'|].
    destruct ok.
    + destruct (T eq_refl) as (data & Ld & A' & _). rewrite A'. apply q_reader_ok. exact Ld.
    + destruct (F eq_refl) as [A' _]. rewrite A'. apply q_reader_fail.
  - destruct (Nat.eq_dec (cap s) 0) as [Z0|NZ].
    + right. unfold drop_first_n. rewrite Z0. cbn [Nat.eqb]. eexists. split; [reflexivity|]. cbn [op_pre]. lia.
    + left. destruct (drop_ok s n HI ltac:(lia)) as (s' & E & I' & L' & A'). exists s'. rewrite A'.
      split; [exact E|]. split; [exact I'|]. rewrite <- (abs_length s). constructor.
  - left. destruct (reserve_ok s n HI) as (s' & E & I' & A' & _). exists s'. rewrite A'. split; [assumption|]. split; [assumption|]. constructor.
  - left. destruct (clear_ok s HI) as (I' & A' & _). exists (clear s). rewrite A'. split; [reflexivity|]. split; [assumption|]. constructor.
  - unfold extend_from_within. destruct (len s <? st + n) eqn:E.
    + right. eexists. split; [reflexivity|]. cbn [op_pre]. lia.
    + destruct (reserve_ok s n HI) as (s1 & E1 & I1 & A1 & L1 & F1 & C1 & CM). rewrite E1. cbn [bind].
      destruct (Nat.eq_dec (cap s1) 0) as [Z0|NZ].
      * right. assert (n = 0) as -> by lia.
        destruct (inv_cap0 s1 I1 Z0) as [L0 _]. assert (st = 0) as -> by lia.
        destruct (within_cap0_panics k s1 I1 Z0 Hk) as [e Ee]. exists e. split; [exact Ee|]. cbn [op_pre]. lia.
      * left. destruct (within_refines k s1 st n I1 ltac:(lia) ltac:(lia) F1 Hk) as (s' & E' & I' & _ & _ & L' & A').
        exists s'. split; [exact E'|]. split; [exact I'|]. rewrite A', A1. constructor. rewrite abs_length. lia.
Qed.

Corollary step_no_fault k s o : 1 <= k -> Inv s -> op_contract o -> forall e, step k s o <> Fault e.
Proof.
  intros Hk HI HC e. destruct (step_ok k s o Hk HI HC) as [(s' & E & _)|(e' & E & _)]; rewrite E; discriminate.
Qed.

Corollary step_pre_done k s o : 1 <= k -> Inv s -> op_contract o -> op_pre s o ->
  exists s', step k s o = Done s' /\ Inv s' /\ qstep (abs s) o (abs s').
Proof.
  intros Hk HI HC HP. destruct (step_ok k s o Hk HI HC) as [H|(e & _ & N)]; [exact H|contradiction].
Qed.

Theorem run_ok k ops : 1 <= k -> Forall op_contract ops -> forall s, Inv s ->
  (forall e, run k s ops <> Fault e) /\
  (forall s', run k s ops = Done s' -> Inv s' /\ qrun (abs s) ops (abs s')).
Proof.
  intros Hk HC. induction HC as [|o ops Ho Hops IH]; intros s HI.
  - cbn [run]. split; [discriminate|]. intros s' E. inversion E. subst. split; [exact HI|constructor].
  - cbn [run]. destruct (step_ok k s o Hk HI Ho) as [(s1 & E1 & I1 & Q1)|(e & E & _)].
    + rewrite E1. cbn [bind]. destruct (IH s1 I1) as [NF D]. split; [exact NF|].
      intros s' E'. destruct (D s' E') as [I' Q']. split; [exact I'|]. econstructor; eassumption.
    + rewrite E. cbn [bind]. split; discriminate.
Qed.

Lemma new_inv : Inv new_rb.
Proof.
  unfold Inv, new_rb, live. cbn [cap head tail mem Nat.leb]. split; [auto|]. split; [lia|]. intros i Hi. lia.
Qed.

Lemma new_abs : abs new_rb = [].
Proof. reflexivity. Qed.
