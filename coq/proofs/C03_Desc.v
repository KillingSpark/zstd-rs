(** C03: the FSE table description reader never panics: for every byte string, every alphabet and every table-size limit
    [read_probabilities] returns a result or an error -- its loops always terminate within their fuel (every step
    consumes at least one bit), it never gives back a bit it did not read, and no probability below -1 can arise.
    What it returns is a normalised distribution, read from no more bytes than it was given. *)
Require Import Zrs.lib.RsPrelude Zrs.proofs.ModelFacts Zrs.lib.ResFacts Zrs.model.BitIO Zrs.model.FseDec Zrs.model.FseEnc.
Open Scope Z_scope.

Lemma bits_left_nonneg br : 0 <= fbr_bits_left br.
Proof. unfold fbr_bits_left. lia. Qed.
Lemma bits_read_nonneg br : 0 <= fbr_bits_read br.
Proof. unfold fbr_bits_read. lia. Qed.

Lemma get_bits_post br n : 0 <= n ->
  post (fbr_get_bits br n) (fun '(v, br') =>
    fbr_bits_left br' = fbr_bits_left br - n /\ fbr_bits_read br' = fbr_bits_read br + n /\ 0 <= v).
Proof.
  intros Hn. unfold fbr_get_bits. destruct (64 <? n); [exact I|]. destruct (Z.ltb_spec (fbr_bits_left br) n) as [|Hle]; [exact I|].
  unfold post, fbr_bits_left, fbr_bits_read in *. cbn [f_past f_rest].
  rewrite skipn_length, rev_append_rev, app_length, rev_length, firstn_length. split; [lia|]. split; [lia|].
  generalize (firstn (Z.to_nat n) (f_rest br)). intros l. induction l as [|b t IH]; cbn [bits_val_lsb]; [lia|]. destruct b; cbn [b2z]; lia.
Qed.

Lemma return_one_post br : 1 <= fbr_bits_read br ->
  post (fbr_return_bits br 1) (fun br' =>
    fbr_bits_left br' = fbr_bits_left br + 1 /\ fbr_bits_read br' = fbr_bits_read br - 1).
Proof.
  intros H. unfold fbr_return_bits. destruct (Z.ltb_spec (fbr_bits_read br) 1); [lia|].
  unfold post, fbr_bits_left, fbr_bits_read in *. cbn [f_rest f_past]. change (Z.to_nat 1) with 1%nat.
  destruct (f_past br) as [|b t]; cbn [length skipn firstn rev_append] in *; lia.
Qed.

Lemma read_value_post br M : 2 <= M ->
  post (read_value br M) (fun '(v, br') => 0 <= v /\ fbr_bits_left br' < fbr_bits_left br /\
    fbr_bits_read br' + fbr_bits_left br' = fbr_bits_read br + fbr_bits_left br).
Proof.
  intros HM. unfold read_value, highest_bit_set.
  assert (L1 : 1 <= Z.log2 M) by (apply Z.log2_le_pow2; lia).
  eapply post_bind; [apply get_bits_post; lia|]. intros [u br1] (B1 & B2 & B3). cbv beta iota zeta.
  replace (Z.log2 M + 1 - 1) with (Z.log2 M) by lia.
  assert (P : 0 < 2 ^ Z.log2 M) by (apply Z.pow_pos_nonneg; lia).
  destruct (u mod 2 ^ Z.log2 M <? 2 ^ (Z.log2 M + 1) - 1 - M).
  - pose proof (bits_read_nonneg br) as R0.
    eapply post_bind; [apply return_one_post; lia|]. intros br2 (B4 & B5).
    split; [apply Z.mod_pos_bound; exact P|lia].
  - pose proof (Z.log2_spec M ltac:(lia)) as (Hlo & Hup). change (Z.succ (Z.log2 M)) with (Z.log2 M + 1) in Hup.
    assert (E2 : 2 ^ (Z.log2 M + 1) = 2 * 2 ^ Z.log2 M) by (rewrite Z.pow_add_r by lia; lia).
    destruct (Z.ltb_spec (2 ^ Z.log2 M - 1) u); (split; [lia|lia]).
Qed.

Lemma weight_app a b : weight (a ++ b) = weight a + weight b.
Proof. induction a as [|x a IH]; cbn [app weight]; [lia|]. rewrite IH. lia. Qed.
Lemma weight_rev l : weight (rev l) = weight l.
Proof. induction l as [|x l IH]; cbn [rev weight]; [reflexivity|]. rewrite weight_app, IH. cbn [weight]. lia. Qed.
Lemma weight_zeros n : weight (zeros n) = 0.
Proof. induction n as [|n IH]; cbn [zeros weight]; [reflexivity|]. rewrite IH. reflexivity. Qed.
Lemma zeros_ge n : Forall (fun p => -1 <= p) (zeros n).
Proof. induction n; cbn [zeros]; constructor; [lia|assumption]. Qed.

(** each round takes two bits *)
Lemma skip_zero_post fuel : forall br acc, fbr_bits_left br < 2 * Z.of_nat fuel ->
  post (skip_zero_runs fuel br acc) (fun '(br', acc') => fbr_bits_left br' <= fbr_bits_left br /\
    fbr_bits_read br' + fbr_bits_left br' = fbr_bits_read br + fbr_bits_left br /\ exists z, acc' = zeros z ++ acc).
Proof.
  induction fuel as [|f IH]; intros br acc Hf; [pose proof (bits_left_nonneg br); lia|]. cbn [skip_zero_runs].
  eapply post_bind; [apply get_bits_post; lia|]. intros [sk br1] (B1 & B2 & _). cbv beta iota zeta.
  destruct (sk =? 3).
  - eapply post_mono; [apply IH; lia|]. intros [br2 a2] (C1 & C2 & z & ->).
    split; [lia|]. split; [lia|]. exists (z + Z.to_nat sk)%nat. clear. rewrite app_assoc. f_equal.
    induction z as [|z IHz]; cbn [zeros Nat.add app]; [reflexivity|]. rewrite IHz. reflexivity.
  - split; [lia|]. split; [lia|]. eexists. reflexivity.
Qed.

Lemma read_probs_loop_post fuel : forall br sum counter acc, fbr_bits_left br < Z.of_nat fuel ->
  Forall (fun p => -1 <= p) acc -> weight acc = counter ->
  post (read_probs_loop fuel br sum counter acc) (fun '(br', counter', acc') =>
    Forall (fun p => -1 <= p) acc' /\ weight acc' = counter' /\
    fbr_bits_read br' + fbr_bits_left br' = fbr_bits_read br + fbr_bits_left br).
Proof.
  induction fuel as [|f IH]; intros br sum counter acc Hf Ha Hw; [pose proof (bits_left_nonneg br); lia|]. cbn [read_probs_loop].
  destruct (Z.ltb_spec counter sum) as [Hc|Hc]; [|split; [exact Ha|split; [exact Hw|reflexivity]]].
  eapply post_bind; [apply read_value_post; lia|]. intros [v br2] (V0 & V1 & V2). cbv beta iota zeta.
  assert (A1 : Forall (fun p => -1 <= p) ((v - 1) :: acc)) by (constructor; [lia|exact Ha]).
  assert (W1 : weight ((v - 1) :: acc) = counter + pw (v - 1)) by (cbn [weight]; lia).
  unfold pw in W1.
  destruct (Z.eqb_spec (v - 1) 0) as [E0|E0].
  - eapply post_bind; [apply skip_zero_post; lia|]. intros [br3 a3] (Z1 & Z2 & z & ->).
    eapply post_mono; [apply IH; [lia|apply Forall_app; split; [apply zeros_ge|exact A1]|rewrite weight_app, weight_zeros, W1; destruct (Z.eqb_spec (v - 1) (-1)); lia]|].
    intros [[br' c'] a'] (X & Y & T). split; [exact X|]. split; [exact Y|lia].
  - destruct (Z.ltb_spec 0 (v - 1)).
    + eapply post_mono; [apply IH; [lia|exact A1|destruct (Z.eqb_spec (v - 1) (-1)); lia]|].
      intros [[br' c'] a'] (X & Y & T). split; [exact X|]. split; [exact Y|lia].
    + destruct (Z.eqb_spec (v - 1) (-1)); [|lia].
      eapply post_mono; [apply IH; [lia|exact A1|lia]|].
      intros [[br' c'] a'] (X & Y & T). split; [exact X|]. split; [exact Y|lia].
Qed.

Lemma fbr_new_left source : fbr_bits_left (fbr_new source) = 8 * Z.of_nat (length source).
Proof.
  unfold fbr_bits_left, fbr_new. cbn [f_rest]. rewrite bits_of_bytes_length. lia.
Qed.

Theorem read_probabilities_post max_symbol source max_log :
  post (read_probabilities max_symbol source max_log) (fun '(al, probs, bytes) =>
    5 <= al <= max_log /\ Forall (fun p => -1 <= p) probs /\ weight probs = 2 ^ al /\
    Z.of_nat (length probs) <= max_symbol + 1 /\ 0 <= bytes <= Z.of_nat (length source)).
Proof.
  unfold read_probabilities, ACC_LOG_OFFSET.
  eapply post_bind; [apply get_bits_post; lia|]. intros [v br] (B1 & B2 & B3). cbv beta iota zeta.
  destruct (Z.ltb_spec max_log (5 + v)); [exact I|]. destruct (5 + v =? 0); [exact I|].
  pose proof (fbr_new_left source) as Hl.
  eapply post_bind; [apply read_probs_loop_post; [lia|constructor|reflexivity]|]. intros [[br' counter] pr] (A & W & T).
  destruct (Z.eqb_spec counter (2 ^ (5 + v))) as [Ec|]; cbn [negb]; [|exact I].
  destruct (Z.ltb_spec (max_symbol + 1) (Z.of_nat (length pr))); [exact I|].
  split; [lia|]. split; [apply Forall_rev; exact A|]. split; [rewrite weight_rev; lia|]. split; [rewrite rev_length; lia|].
  (* the bits read never exceed the source: read + left is constant, and nothing was read at the start *)
  pose proof (bits_left_nonneg br'). pose proof (bits_read_nonneg br').
  assert (R0 : fbr_bits_read (fbr_new source) = 0) by reflexivity.
  destruct (Z.eqb_spec (fbr_bits_read br' mod 8) 0); lia.
Qed.

Theorem read_probabilities_never_panics max_symbol source max_log : no_panic (read_probabilities max_symbol source max_log).
Proof. eapply post_mono; [apply read_probabilities_post|]. trivial. Qed.
