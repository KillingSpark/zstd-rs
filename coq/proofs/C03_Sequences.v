(** C03: the sequences section never panics.  With the three FSE tables of the scratch space each unset or built from a
    normalised distribution (the only tables the decoder ever stores), updating the tables from any bytes, initialising
    the three states and decoding any number of sequences returns a result or an error, and leaves the tables in the
    same condition. *)
Require Import Zrs.lib.RsPrelude Zrs.proofs.ModelFacts Zrs.lib.ResFacts Zrs.lib.Sweep Zrs.gen.Generated Zrs.model.BitIO Zrs.model.FseDec Zrs.model.FseEnc Zrs.model.BlockDec.
Require Import Zrs.proofs.C05_Block Zrs.proofs.C11_Reset Zrs.proofs.C03_HufStream.
Require Import Zrs.proofs.C03_FseBuild Zrs.proofs.C03_HufBuild.
Open Scope Z_scope.

Definition tab_ok (M : Z) (t : fse_table) (rle : option Z) : Prop :=
  t_max_symbol t = M /\ (t_acc_log t = 0 \/ fse_range t) /\ match rle with Some c => 0 <= c <= M | None => True end.
Definition fscratch_ok (s : fse_scratch) : Prop :=
  tab_ok MAX_LITERAL_LENGTH_CODE (fs_ll s) (fs_ll_rle s) /\ tab_ok MAX_OFFSET_CODE (fs_of s) (fs_of_rle s) /\
  tab_ok MAX_MATCH_LENGTH_CODE (fs_ml s) (fs_ml_rle s).

Lemma fse_scratch_new_ok : fscratch_ok fse_scratch_new.
Proof. unfold fscratch_ok, tab_ok, fse_scratch_new. cbn. repeat split; auto. Qed.

(** what [update_one_table] needs of the constants of one table: alphabet, size limit, predefined distribution *)
Definition table_params (M max_log def_log : Z) (def_dist : list Z) : bool :=
  (M <=? 255) && (max_log <=? 9) && (5 <=? def_log) && (def_log <=? 9) && forallb (fun p => -1 <=? p) def_dist &&
  (weight def_dist =? 2 ^ def_log) && (Z.of_nat (length def_dist) <=? M + 1).

Lemma update_one_ok mode src t rle max_log M def_log def_dist err :
  bytes_ok src = true -> tab_ok M t rle -> table_params M max_log def_log def_dist = true ->
  post (update_one_table mode src t rle max_log M def_log def_dist err)
       (fun '(t', rle', n) => tab_ok M t' rle' /\ 0 <= n <= zlen src).
Proof.
  intros B (Hms & Ht & Hr) P. unfold table_params in P. repeat rewrite andb_true_iff in P.
  destruct P as ((((((HM & Hml) & Hd5) & Hd9) & Hdp) & Hdw) & Hdn). unfold update_one_table.
  destruct (mode =? 2).
  - eapply post_bind; [apply (fse_build_decoder_good t src max_log); lia|]. intros [D bytes] (_ & R & Hm & Hb).
    split; [|exact Hb]. split; [lia|]. split; [right; exact R|exact I].
  - destruct (mode =? 1).
    + destruct src as [|b rest]; [exact I|]. destruct (Z.ltb_spec M b); [exact I|].
      pose proof (bytes_ok_nth (b :: rest) 0 B) as Hb. unfold nth_z in Hb. cbn in Hb.
      split; [|unfold zlen; cbn [length]; lia]. split; [exact Hms|]. split; [exact Ht|lia].
    + destruct (mode =? 0).
      * assert (Hp : Forall (fun p => -1 <= p) def_dist).
        { rewrite forallb_forall in Hdp. rewrite Forall_forall. intros x Hx. specialize (Hdp x Hx). lia. }
        destruct (build_from_probabilities_good t def_log def_dist ltac:(lia) ltac:(lia) Hp ltac:(lia) ltac:(lia)) as (D & -> & R & Hm).
        cbn [rbind]. split; [|unfold zlen; lia]. split; [lia|]. split; [right; exact R|exact I].
      * split; [|unfold zlen; lia]. split; [exact Hms|]. split; [exact Ht|exact Hr].
Qed.

Theorem maybe_update_ok modes source s : bytes_ok source = true -> fscratch_ok s ->
  post (maybe_update_fse_tables modes source s) (fun '(s', n) => fscratch_ok s' /\ 0 <= n <= zlen source).
Proof.
  intros B (Hll & Hof & Hml). unfold maybe_update_fse_tables. destruct modes as [m|]; [|exact I]. cbv zeta.
  eapply post_bind; [apply update_one_ok; [exact B|exact Hll|reflexivity]|]. intros [[ll ll_rle] n1] (T1 & N1).
  destruct (Z.ltb_spec (zlen source) n1); [lia|].
  pose proof (drop_len n1 source N1) as L1.
  eapply post_bind; [apply update_one_ok; [apply bytes_ok_skipn; exact B|exact Hof|reflexivity]|]. intros [[of of_rle] n2] (T2 & N2).
  destruct (Z.ltb_spec (zlen source) (n1 + n2)); [lia|].
  pose proof (drop_len (n1 + n2) source ltac:(lia)) as L2.
  eapply post_bind; [apply update_one_ok; [apply bytes_ok_skipn; exact B|exact Hml|reflexivity]|]. intros [[ml ml_rle] n3] (T3 & N3).
  split; [|lia]. unfold fscratch_ok. cbn [fs_ll fs_ll_rle fs_of fs_of_rle fs_ml fs_ml_rle]. tauto.
Qed.

Lemma sweep_no_panic {A} (f : Z -> res A) hi : sweep (fun c => negb (is_panic (f c))) 0 hi = true ->
  forall c, 0 <= c < hi -> no_panic (f c).
Proof. intros S c Hc. pose proof (sweep_spec _ _ _ S c Hc) as F. cbv beta in F. destruct (f c); [exact I|exact I|discriminate]. Qed.

Lemma ll_code_post c : 0 <= c <= MAX_LITERAL_LENGTH_CODE -> post (lookup_ll_code c) (fun '(v, n) => 0 <= v /\ 0 <= n).
Proof.
  intros H. eapply post_also; [apply (sweep_no_panic lookup_ll_code 36); [vm_compute; reflexivity|unfold MAX_LITERAL_LENGTH_CODE in H; lia]|].
  intros [v n] E _. exact (lookup_ll_nonneg c v n E).
Qed.
Lemma ml_code_post c : 0 <= c <= MAX_MATCH_LENGTH_CODE -> post (lookup_ml_code c) (fun '(v, n) => 0 <= v /\ 0 <= n).
Proof.
  intros H. eapply post_also; [apply (sweep_no_panic lookup_ml_code 53); [vm_compute; reflexivity|unfold MAX_MATCH_LENGTH_CODE in H; lia]|].
  intros [v n] E _. exact (lookup_ml_nonneg c v n E).
Qed.

(** a decoder state belonging to its table (irrelevant in RLE mode) *)
Definition dstate_ok (t : fse_table) (rle : option Z) (st : fse_entry) : Prop :=
  match rle with Some _ => True | None => fse_range t /\ In st (t_decode t) end.

Lemma code_of_range M t rle st : tab_ok M t rle -> dstate_ok t rle st -> 0 <= code_of rle st <= M.
Proof.
  intros (Hm & _ & Hr) Hs. unfold code_of. destruct rle as [c|]; [exact Hr|].
  destruct Hs as ((_ & _ & R) & Hin). destruct (R st Hin) as (_ & _ & _ & X). lia.
Qed.

Lemma step_state t rle st br : dstate_ok t rle st -> rwf br ->
  post (match rle with None => fse_update_state t st br | Some _ => ROk (st, br) end)
       (fun '(st', br') => dstate_ok t rle st' /\ rwf br').
Proof.
  intros Hs W. destruct rle as [c|]; [split; [exact I|exact W]|]. destruct Hs as (R & Hin).
  destruct (update_in t R st br Hin W) as (st' & br' & -> & Hin' & W'). split; [split; assumption|exact W'].
Qed.

Lemma triple_wf br a b c : rwf br -> 0 <= a -> 0 <= b -> 0 <= c ->
  let '(_, _, _, br') := rbr_get_bits_triple br a b c in rwf br'.
Proof.
  intros W Ha Hb Hc. unfold rbr_get_bits_triple.
  destruct (get_bits_wf br a W Ha) as (W1 & _). destruct (rbr_get_bits br a) as [v1 r1]. cbn [snd] in W1.
  destruct (get_bits_wf r1 b W1 Hb) as (W2 & _). destruct (rbr_get_bits r1 b) as [v2 r2]. cbn [snd] in W2.
  destruct (get_bits_wf r2 c W2 Hc) as (W3 & _). destruct (rbr_get_bits r2 c) as [v3 r3]. cbn [snd] in W3. exact W3.
Qed.

Lemma seq_loop_no_panic n : forall total s ll ml of br done acc, fscratch_ok s ->
  dstate_ok (fs_ll s) (fs_ll_rle s) ll -> dstate_ok (fs_ml s) (fs_ml_rle s) ml -> dstate_ok (fs_of s) (fs_of_rle s) of -> rwf br ->
  no_panic (seq_loop n total s ll ml of br done acc).
Proof.
  induction n as [|k IH]; intros total s ll ml of br done acc Hs Sll Sml Sof W; cbn [seq_loop]; [exact I|].
  pose proof Hs as (Tll & Tof & Tml).
  pose proof (code_of_range _ _ _ _ Tll Sll) as Cll. pose proof (code_of_range _ _ _ _ Tml Sml) as Cml. pose proof (code_of_range _ _ _ _ Tof Sof) as Cof.
  eapply post_bind; [apply ll_code_post; exact Cll|]. intros [llv llb] (_ & Hllb).
  eapply post_bind; [apply ml_code_post; exact Cml|]. intros [mlv mlb] (_ & Hmlb).
  destruct (MAX_OFFSET_CODE <? code_of (fs_of_rle s) of); [exact I|].
  pose proof (triple_wf br (code_of (fs_of_rle s) of) mlb llb W ltac:(lia) Hmlb Hllb) as W3.
  destruct (rbr_get_bits_triple br (code_of (fs_of_rle s) of) mlb llb) as [[[ob mla] lla] br3].
  destruct (_ =? 0); [exact I|].
  apply post_bind with (P := fun '(ll', ml', of', br') =>
    dstate_ok (fs_ll s) (fs_ll_rle s) ll' /\ dstate_ok (fs_ml s) (fs_ml_rle s) ml' /\ dstate_ok (fs_of s) (fs_of_rle s) of' /\ rwf br').
  - destruct (done + 1 <? total); [|repeat (split; [assumption|]); assumption].
    eapply post_bind; [apply step_state; eassumption|]. intros [ll' b1] (Sll' & W4). cbv beta iota.
    eapply post_bind; [apply step_state; eassumption|]. intros [ml' b2] (Sml' & W5). cbv beta iota.
    eapply post_bind; [apply step_state; eassumption|]. intros [of' b3] (Sof' & W6). repeat (split; [assumption|]). assumption.
  - intros [[[ll' ml'] of'] br'] (Sll' & Sml' & Sof' & W'). destruct (rbr_bits_remaining br' <? 0); [exact I|]. apply IH; assumption.
Qed.

Lemma init_state t M rle br : tab_ok M t rle -> rwf br ->
  match (match rle with None => fse_init_state t br | Some _ => ROk (fse_dec_new t, br) end) with
  | ROk (st, br') => dstate_ok t rle st /\ rwf br'
  | RErr _ => True
  | RPanic _ => False
  end.
Proof.
  intros (_ & Ht & _) W. destruct rle as [c|]; [split; [exact I|exact W]|].
  destruct Ht as [E0|R].
  - unfold fse_init_state. rewrite E0. cbn [Z.eqb]. exact I.
  - destruct (init_in t R br W) as (st & br' & -> & Hin & W'). split; [split; assumption|exact W'].
Qed.

Theorem decode_sequences_never_panics n modes source s : bytes_ok source = true -> fscratch_ok s ->
  match decode_sequences n modes source s with
  | ROk (s', seqs) => fscratch_ok s' /\ Forall seq_ok seqs
  | RErr _ => True
  | RPanic _ => False
  end.
Proof.
  intros B Hs. apply post_also with (P := fun '(s', _) => fscratch_ok s');
    [|intros [s' seqs] E H; split; [exact H|exact (decode_sequences_ok _ _ _ _ _ _ E)]].
  unfold decode_sequences.
  eapply post_bind; [apply maybe_update_ok; assumption|]. intros [s1 used] (Hs1 & Hu).
  destruct (Z.ltb_spec (zlen source) used); [lia|]. cbv zeta.
  destruct (rbr_skip_padding (rbr_new (drop_z used source))) as [br|] eqn:Esk; [|exact I].
  pose proof (skip_padding_wf _ _ (rbr_new_wf _) Esk) as W.
  pose proof Hs1 as (Tll & Tof & Tml).
  eapply post_bind; [exact (init_state _ _ _ br Tll W)|]. intros [ll b1] (Sll & W1).
  eapply post_bind; [exact (init_state _ _ _ b1 Tof W1)|]. intros [of b2] (Sof & W2).
  eapply post_bind; [exact (init_state _ _ _ b2 Tml W2)|]. intros [ml b3] (Sml & W3).
  eapply post_bind; [apply seq_loop_no_panic; assumption|]. intros [acc b4] _.
  destruct (0 <? rbr_bits_remaining b4); [exact I|exact Hs1].
Qed.
