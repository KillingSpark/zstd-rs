(** C02 / C13 / C16: a compressed block whose literals are Huffman-coded (four streams, with a table description or
    treeless), as the compressor lays it out, decodes to "execute the coded sequences over the literals". *)
Require Import Zrs.lib.RsPrelude Zrs.proofs.ModelFacts Zrs.gen.Generated Zrs.model.FseDec Zrs.model.HufDec Zrs.model.BlockDec.
Require Import Zrs.model.SeqSection Zrs.model.BlockEnc Zrs.model.LitEnc.
Require Import Zrs.proofs.C13_Stream Zrs.proofs.C02_BlockGen Zrs.proofs.C13_LitSection Zrs.proofs.C02_Concrete.
Open Scope Z_scope.

(** the literals section alone: it meets O2 ([lit_ok]) *)
Lemma huffman_section_read_back t Mn code lits a b c d ty desc h :
  ht_max_bits t = Z.of_nat Mn -> (1 <= Mn)%nat -> ht_len t = 2 ^ Z.of_nat Mn ->
  (16 <= length lits)%nat -> split4 lits = (a, b, c, d) ->
  Forall (code_ok Mn code) lits -> Forall (resolves t Mn code) lits ->
  zlen (hstream code a) < 65536 /\ zlen (hstream code b) < 65536 /\ zlen (hstream code c) < 65536 ->
  let payload := desc ++ huf4_bytes code lits in
  (ty = 2 /\ huf_build_decoder h payload = ROk (t, zlen desc)) \/ (ty = 3 /\ desc = [] /\ h = t) ->
  zlen payload < zlen lits -> zlen lits <= MAX_BLOCK_SIZE ->
  lit_ok h lits (huf_lit_header ty (zlen lits) (zlen payload)) payload t.
Proof.
  intros HM HM1 Hlen Hn Hsplit Hok Hres Hsz payload Hty Hpl Hmax.
  pose proof (split4_spec lits Hn) as Sp. rewrite Hsplit in Sp. destruct Sp as (El & Na & Nb & Nc & Nd).
  assert (E4 : huf4_bytes code lits = four_bytes code a b c d) by (unfold huf4_bytes; rewrite Hsplit; reflexivity).
  change MAX_BLOCK_SIZE with 131072 in *.
  assert (P0 : 0 <= zlen payload) by apply zlen_nonneg.
  assert (Ty : ty = 2 \/ ty = 3) by (destruct Hty as [(-> & _)|(-> & _)]; [left|right]; reflexivity).
  assert (L16 : 16 <= zlen lits) by (unfold zlen; lia).
  exists ty, (zlen lits), (Some (zlen payload)), (Some 4). split.
  { intros rest. rewrite huf_header_length. destruct (Z.ltb_spec (zlen lits) 16384) as [Hsm|Hlg].
    - apply huf_header_parse_small; [exact Ty|lia|lia].
    - apply huf_header_parse_large; [exact Ty|lia|lia]. }
  split; [reflexivity|]. split; [split; [reflexivity|exact Hmax]|].
  unfold payload. rewrite E4, El.
  apply (huffman_payload_decodes t Mn HM HM1 Hlen code a b c d (conj Na (conj Nb (conj Nc Nd)))).
  - rewrite <- El. exact Hok.
  - rewrite <- El. exact Hres.
  - exact Hsz.
  - unfold payload in Hty. rewrite E4 in Hty. exact Hty.
Qed.

Theorem huffman_literal_block_decodes t Mn code lits a b c d ty desc sc dl do dm seqs sp :
  ht_max_bits t = Z.of_nat Mn -> (1 <= Mn)%nat -> ht_len t = 2 ^ Z.of_nat Mn ->
  (16 <= length lits)%nat -> split4 lits = (a, b, c, d) ->
  Forall (code_ok Mn code) lits -> Forall (resolves t Mn code) lits ->
  zlen (hstream code a) < 65536 /\ zlen (hstream code b) < 65536 /\ zlen (hstream code c) < 65536 ->
  let payload := desc ++ huf4_bytes code lits in
  (ty = 2 /\ huf_build_decoder (sc_huf sc) payload = ROk (t, zlen desc)) \/ (ty = 3 /\ desc = [] /\ sc_huf sc = t) ->
  zlen payload < zlen lits -> zlen lits <= MAX_BLOCK_SIZE ->
  seq_part dl do dm seqs = ROk sp -> Z.of_nat (length seqs) <= 98047 ->
  (seqs <> [] -> section_hyps_b dl do dm seqs = true) ->
  t_max_symbol (fs_ll (sc_fse sc)) = MAX_LITERAL_LENGTH_CODE -> t_max_symbol (fs_of (sc_fse sc)) = MAX_OFFSET_CODE ->
  t_max_symbol (fs_ml (sc_fse sc)) = MAX_MATCH_LENGTH_CODE ->
  let body := huf_lit_section ty desc code lits ++ sp in
  decompress_block (zlen body) sc body =
    match seqs with
    | [] => ROk {| sc_huf := t; sc_fse := sc_fse sc; sc_buf := db_push (sc_buf sc) lits; sc_hist := sc_hist sc |}
    | _ =>
        match build_table MAX_LITERAL_LENGTH_CODE dl, build_table MAX_MATCH_LENGTH_CODE dm, build_table MAX_OFFSET_CODE do with
        | ROk Dll, ROk Dml, ROk Dof =>
            let* (buf, hist) := execute_sequences seqs lits (sc_buf sc) (sc_hist sc) in
            ROk {| sc_huf := t; sc_fse := C12_SeqStream.sc Dll Dml Dof; sc_buf := buf; sc_hist := hist |}
        | _, _, _ => RErr "tables"
        end
    end.
Proof.
  intros HM HM1 Hlen Hn Hsplit Hok Hres Hsz payload Hty Hpl Hmax Hsp Hs Hh M1 M2 M3 body.
  destruct (huffman_section_read_back t Mn code lits a b c d ty desc (sc_huf sc) HM HM1 Hlen Hn Hsplit Hok Hres Hsz Hty Hpl Hmax)
    as (ty' & regen & comp & streams & L1 & L2 & L3 & L4).
  unfold body, huf_lit_section. fold payload. rewrite <- !app_assoc.
  exact (block_decodes _ payload ty' regen comp streams sc t lits L1 L2 L3 L4 dl do dm seqs sp Hsp Hs Hh M1 M2 M3).
Qed.
