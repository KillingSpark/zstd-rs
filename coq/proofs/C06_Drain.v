(** C06 / C08: the drain paths of the decode buffer hand out a prefix of the buffered bytes, exactly once, and feed
    exactly those bytes to the hasher -- for every sink behaviour and every position of the ring buffer's seam.
    Every drain path ends in [db_take_front]; [drained_to] is what one such call does to the buffer. *)
Require Import Zrs.lib.RsPrelude Zrs.lib.ListFacts Zrs.model.BlockDec Zrs.model.FrameDec.

(** the buffered bytes, oldest first; the bytes hashed so far, in order *)
Definition db_all (b : dbuf) : list Z := rev (db_rev b).
Definition db_hashed (b : dbuf) : list Z := rev (db_hashed_rev b).
Definition db_wf (b : dbuf) : Prop := db_len b = Z.of_nat (length (db_rev b)).

Lemma wf_len_nonneg b : db_wf b -> 0 <= db_len b.
Proof. unfold db_wf. lia. Qed.

(** [b'] is [b] after its oldest bytes [out] left it and were hashed; nothing else changed *)
Definition drained_to (b : dbuf) (out : list Z) (b' : dbuf) : Prop :=
  out ++ db_all b' = db_all b /\ db_hashed b' = db_hashed b ++ out /\ db_wf b' /\
  db_len b' = db_len b - Z.of_nat (length out) /\
  db_dict b' = db_dict b /\ db_window b' = db_window b /\ db_total_out b' = db_total_out b.

Lemma drained_to_nil b : db_wf b -> drained_to b [] b.
Proof. intros W. unfold drained_to. rewrite app_nil_r, Z.sub_0_r. repeat split. exact W. Qed.

Lemma take_front_spec b n : db_wf b -> 0 <= n <= db_len b ->
  let '(out, b') := db_take_front b n in drained_to b out b' /\ Z.of_nat (length out) = n.
Proof.
  intros W Hn. unfold db_take_front, drained_to, db_all, db_hashed, db_wf, take_z, drop_z in *.
  cbn [db_rev db_len db_hashed_rev db_dict db_window db_total_out].
  rewrite rev'_rev, rev_length, skipn_length.
  set (k := Z.to_nat (db_len b - n)).
  repeat split; try lia.
  - rewrite <- rev_app_distr, firstn_skipn. reflexivity.
  - rewrite rev_append_rev, rev_app_distr, rev_involutive. reflexivity.
  - rewrite firstn_length. lia.
Qed.

Section AnySink.
  Variable St : Type.
  Variable sstep : St -> Z -> sink_resp * St.

  Lemma write_all_bytes_bound fuel : forall st buflen written,
    0 <= written <= buflen ->
    let '(w, ok, st') := write_all_bytes St sstep fuel st buflen written in written <= w <= buflen.
  Proof.
    induction fuel as [|f IH]; intros st buflen written H; cbn [write_all_bytes]; [lia|].
    destruct (written <? buflen) eqn:E; [|lia].
    destruct (sstep st (buflen - written)) as [[n| |] st']; try lia.
    specialize (IH st' buflen (written + Z.min (Z.max n 1) (buflen - written)) ltac:(lia)).
    destruct (write_all_bytes St sstep f st' buflen (written + Z.min (Z.max n 1) (buflen - written))) as [[w ok] st''].
    lia.
  Qed.

  (** whatever the sink does and wherever the ring's seam is, the sink path takes some [n <= amount] bytes off
      the front, as counted by the two [write_all_bytes] calls *)
  Lemma drain_to_sink_drains b amount split st : db_wf b -> 0 <= amount <= db_len b ->
    let '(out, b', ok, st') := db_drain_to_sink St sstep b amount split st in
    drained_to b out b' /\ Z.of_nat (length out) <= amount.
  Proof.
    intros W Ha. unfold db_drain_to_sink.
    assert (forall n, 0 <= n <= amount ->
      let '(out, b') := db_take_front b n in drained_to b out b' /\ Z.of_nat (length out) <= amount) as TF.
    { intros n Hn. pose proof (take_front_spec b n W ltac:(lia)) as T.
      destruct (db_take_front b n) as [out b']. split; [apply T|lia]. }
    pose proof (drained_to_nil b W) as T0.
    destruct (amount =? 0); [split; [exact T0|cbn; lia]|].
    set (s1 := if db_len b =? 0 then 0 else Z.min (Z.max split 1) (db_len b)).
    set (n1 := Z.min s1 amount). set (n2 := Z.min (db_len b - s1) (amount - n1)).
    assert (0 <= s1 <= db_len b) as Hs1 by (unfold s1; destruct (db_len b =? 0) eqn:?; lia).
    destruct (n1 =? 0); [split; [exact T0|cbn; lia]|].
    pose proof (write_all_bytes_bound (S (Z.to_nat n1)) st n1 0 ltac:(lia)) as B1.
    destruct (write_all_bytes St sstep (S (Z.to_nat n1)) st n1 0) as [[w1 ok1] st1].
    destruct ok1; cbn [negb]; [|apply (TF w1); lia].
    destruct ((w1 =? n1) && negb (n2 =? 0)); [|apply (TF w1); lia].
    pose proof (write_all_bytes_bound (S (Z.to_nat n2)) st1 n2 0 ltac:(lia)) as B2.
    destruct (write_all_bytes St sstep (S (Z.to_nat n2)) st1 n2 0) as [[w2 ok2] st2].
    apply (TF (w1 + w2)). lia.
  Qed.

  (** no byte is lost or duplicated, whatever the sink does and wherever the ring's seam is:
      what the sink received is a prefix of the buffer, and exactly that prefix left the buffer and was hashed *)
  Theorem drain_to_sink_spec b amount split st : db_wf b -> 0 <= amount <= db_len b ->
    let '(out, b', ok, st') := db_drain_to_sink St sstep b amount split st in
    out ++ db_all b' = db_all b /\ db_hashed b' = db_hashed b ++ out /\ db_wf b' /\
    Z.of_nat (length out) <= amount /\ db_len b' = db_len b - Z.of_nat (length out) /\
    db_dict b' = db_dict b /\ db_window b' = db_window b /\ db_total_out b' = db_total_out b.
  Proof.
    intros W Ha. pose proof (drain_to_sink_drains b amount split st W Ha) as T.
    destruct (db_drain_to_sink St sstep b amount split st) as [[[out b'] ok] st'].
    destruct T as ((T1 & T2 & T3 & T4 & T5) & T6). repeat split; solve [assumption | apply T5].
  Qed.
End AnySink.

Lemma drain_amount_spec b amount : db_wf b -> 0 <= amount ->
  let '(out, b') := db_drain_amount b amount in
  drained_to b out b' /\ Z.of_nat (length out) = Z.min amount (db_len b).
Proof. intros W Ha. apply take_front_spec; [exact W|]. apply wf_len_nonneg in W. lia. Qed.

Lemma db_read_spec b n : db_wf b -> 0 <= n ->
  let '(out, b') := db_read b n in
  drained_to b out b' /\ Z.of_nat (length out) <= n /\ Z.min (db_window b) (db_len b) <= db_len b'.
Proof.
  intros W Hn. unfold db_read, db_can_drain_to_window.
  set (m := match (if db_window b <? db_len b then Some (db_len b - db_window b) else None) with
            | Some x => x | None => 0 end).
  assert (0 <= m <= db_len b - Z.min (db_window b) (db_len b)) as Hm
    by (apply wf_len_nonneg in W; unfold m; destruct (db_window b <? db_len b) eqn:E; lia).
  pose proof (drain_amount_spec b (Z.min m n) W ltac:(lia)) as T.
  destruct (db_drain_amount b (Z.min m n)) as [out b']. destruct T as (T & L).
  split; [exact T|]. destruct T as (_ & _ & _ & T & _). lia.
Qed.

Lemma db_read_retains b n : db_wf b -> 0 <= n ->
  let '(out, b') := db_read b n in Z.min (db_window b) (db_len b) <= db_len b'.
Proof.
  intros W Hn. pose proof (db_read_spec b n W Hn) as T. destruct (db_read b n) as [out b']. apply T.
Qed.
