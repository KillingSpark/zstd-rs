(** C13: the FSE-compressed weight description -- header byte (its length), FSE table description, two-state stream --
    is parsed by [read_weights] into exactly the weights that were written.  First for any table whose encoder states
    carry a bit; then with that read off the decoding table (every entry carries a bit and has its baseline inside the
    table, which is what the "avoid zero bits" option of the table builder is for); then for every normalised
    distribution in which no probability exceeds half the table size (accuracy logs 5 and 6, the ones the weight
    description may use); then as the compressor builds it: histogram of the weights, normaliser with the
    avoid-zero-bits option (limit 6), table description, stream.  Last: for at least two weights, each at most 11 and
    one positive, the normaliser does return a distribution and it has a table description. *)
Require Import Zrs.lib.RsPrelude Zrs.lib.ListFacts Zrs.proofs.ModelFacts Zrs.model.BitStream Zrs.model.FseDec Zrs.model.HufDec Zrs.model.BlockDec Zrs.model.SeqEnc Zrs.model.FseEnc Zrs.model.FseNorm Zrs.model.WeightEnc.
Require Import Zrs.proofs.C12_SeqStream Zrs.proofs.C12_Desc Zrs.proofs.C12_Section Zrs.proofs.C12_AvoidBits.
Require Import Zrs.proofs.C12_Norm Zrs.proofs.C12_NormTotal Zrs.proofs.C13_WeightStream.
Open Scope Z_scope.

Theorem fse_weight_description_roundtrip t al probs d D syms data rest :
  5 <= al <= 6 -> dist_ok al probs -> Z.of_nat (length probs) <= t_max_symbol (ht_fse t) + 1 ->
  desc_bytes al probs = Some d -> fse_build_from_probabilities (ht_fse t) al probs = ROk D ->
  table_wf D -> Forall (covers D) syms ->
  (forall sym, In sym syms -> (1 <= es_bits (et_start (enc_of_dec D) sym))%nat /\
                              forall idx, 0 <= idx < t_len D -> (1 <= es_bits (et_next (enc_of_dec D) sym idx))%nat) ->
  (forall sym, In sym syms -> es_base (et_start (enc_of_dec D) sym) < t_len D) ->
  (2 <= length data <= 257)%nat -> Forall (fun x => In x syms) data ->
  let stream := stream_bytes (weight_fields (enc_of_dec D) data) in
  let header := zlen d + zlen stream in
  header < 128 ->
  read_weights t (header :: d ++ stream ++ rest) = ROk (data, D, 1 + header).
Proof.
  intros Hal Hd Hlen Hdesc Hb Hwf Hcov Hbits Hbase Hl Hin stream header Hh.
  pose proof (derived_encoder_agrees D syms Hwf Hcov) as Hag.
  destruct (weight_stream_roundtrip D (enc_of_dec D) syms data Hag Hbits Hbase Hl Hin) as (br0 & s1 & br1 & s2 & br2 & Hskip & I1 & I2 & Hloop).
  fold stream in Hskip, Hloop.
  assert (Hne : stream ++ rest <> []).
  { pose proof (stream_bytes_nonempty (weight_fields (enc_of_dec D) data)) as N. fold stream in N. destruct stream; [congruence|discriminate]. }
  unfold read_weights. rewrite (proj2 (Z.ltb_lt _ _) Hh). fold (zlen (d ++ stream ++ rest)).
  unfold header. rewrite <- zlen_app, app_assoc, short_app, <- app_assoc.
  rewrite (build_decoder_of_description (ht_fse t) al probs 6 (stream ++ rest) D d ltac:(lia) ltac:(lia) Hd Hlen Hne Hdesc Hb). cbn [rbind].
  rewrite short_app, zlen_app, Z.add_simpl_l.
  rewrite (drop_app d (stream ++ rest) : skipn (Z.to_nat (zlen d)) _ = _). fold (zlen (stream ++ rest)).
  rewrite short_app, (take_app stream rest : firstn (Z.to_nat (zlen stream)) _ = _), Hskip, I1. cbn [rbind]. rewrite I2. cbn [rbind]. rewrite Hloop. cbn [rbind].
  rewrite rev_involutive, Z.div_add by lia. reflexivity.
Qed.

Theorem derived_states_carry_a_bit D syms : table_wf D -> entries_carry_a_bit D -> Forall (covers D) syms ->
  (forall sym, In sym syms -> (1 <= es_bits (et_start (enc_of_dec D) sym))%nat /\
                              forall idx, 0 <= idx < t_len D -> (1 <= es_bits (et_next (enc_of_dec D) sym idx))%nat) /\
  (forall sym, In sym syms -> es_base (et_start (enc_of_dec D) sym) < t_len D).
Proof.
  intros W Hb Hc. pose proof W as (Hl & _ & _). unfold entries_carry_a_bit in Hb. rewrite Forall_forall in Hb, Hc.
  assert (Hstart : forall sym, In sym syms -> exists j e, min_base (t_decode D) 0 sym None = Some (j, e) /\ In e (t_decode D)).
  { intros sym Hin. destruct (Hc sym Hin) as (Hmin & _).
    destruct (min_base (t_decode D) 0 sym None) as [[j e]|] eqn:E; [|congruence]. exists j, e. split; [reflexivity|].
    destruct (min_base_spec _ _ _ _ _ _ E) as [|(A & B & C)]; [discriminate|]. rewrite <- B. apply nth_In. lia. }
  split.
  - intros sym Hin. split.
    + destruct (Hstart sym Hin) as (j & e & E & He). cbn [et_start enc_of_dec]. rewrite E. cbn [to_state es_bits].
      destruct (Hb e He). lia.
    + intros idx Hidx. destruct (Hc sym Hin) as (_ & Hcov). cbn [et_next enc_of_dec].
      destruct (find_entry (t_decode D) 0 _) as [[j e]|] eqn:E; [|exfalso; exact (Hcov idx Hidx E)].
      destruct (find_entry_spec _ _ _ _ _ E) as (A & B & C). cbn [to_state es_bits].
      assert (He : In e (t_decode D)) by (rewrite <- B; apply nth_In; lia). destruct (Hb e He). lia.
  - intros sym Hin. destruct (Hstart sym Hin) as (j & e & E & He). cbn [et_start enc_of_dec]. rewrite E. cbn [to_state es_base].
    destruct (Hb e He). lia.
Qed.

Corollary fse_weight_description_roundtrip' t al probs d D syms data rest :
  5 <= al <= 6 -> dist_ok al probs -> Z.of_nat (length probs) <= t_max_symbol (ht_fse t) + 1 ->
  desc_bytes al probs = Some d -> fse_build_from_probabilities (ht_fse t) al probs = ROk D ->
  table_wf D -> entries_carry_a_bit D -> Forall (covers D) syms ->
  (2 <= length data <= 257)%nat -> Forall (fun x => In x syms) data ->
  let stream := stream_bytes (weight_fields (enc_of_dec D) data) in
  let header := zlen d + zlen stream in
  header < 128 ->
  read_weights t (header :: d ++ stream ++ rest) = ROk (data, D, 1 + header).
Proof.
  intros Hal Hd Hlen Hdesc Hb Hwf Hbit Hcov Hl Hin stream header Hh.
  destruct (derived_states_carry_a_bit D syms Hwf Hbit Hcov) as (A & B).
  apply (fse_weight_description_roundtrip t al probs d D syms data rest Hal Hd Hlen Hdesc Hb Hwf Hcov A B Hl Hin Hh).
Qed.

Theorem fse_weight_description_for_every_half_bounded_distribution t al probs d data rest :
  t_max_symbol (ht_fse t) = 255 -> 5 <= al <= 6 ->
  Forall (fun p => -1 <= p <= 2 ^ (al - 1)) probs -> weight probs = 2 ^ al -> last probs 1 <> 0 -> (length probs <= 256)%nat ->
  desc_bytes al probs = Some d ->
  (2 <= length data <= 257)%nat ->
  Forall (fun x => exists i, x = Z.of_nat i /\ (i < length probs)%nat /\ nth i probs 0 <> 0) data ->
  exists D, fse_build_from_probabilities (ht_fse t) al probs = ROk D /\
    let stream := stream_bytes (weight_fields (enc_of_dec D) data) in
    let header := zlen d + zlen stream in
    (header < 128 -> read_weights t (header :: d ++ stream ++ rest) = ROk (data, D, 1 + header)).
Proof.
  intros Hms Hal Hp Hw Hlast Hlen Hdesc Hl Hdata.
  destruct (half_bounded_distribution_carries_bits al probs 255 ltac:(lia) Hp Hw Hlen ltac:(lia)) as (D & Eb & Hbit & Hwf & Hcov).
  assert (Eb' : fse_build_from_probabilities (ht_fse t) al probs = ROk D) by (rewrite build_indep, Hms; exact Eb).
  exists D. split; [exact Eb'|]. intros stream header Hh.
  assert (Hc : Forall (covers D) data).
  { apply Forall_forall. intros x Hx. rewrite Forall_forall in Hdata. destruct (Hdata x Hx) as (i & -> & Hi & Hn). apply Hcov; assumption. }
  assert (Hd : dist_ok al probs).
  { split; [|split; [exact Hw|exact Hlast]]. eapply Forall_impl; [|exact Hp]. intros a Ha. cbv beta in *. lia. }
  apply (fse_weight_description_roundtrip' t al probs d D data data rest Hal Hd ltac:(rewrite Hms; lia) Hdesc Eb' Hwf Hbit Hc Hl
           ltac:(apply Forall_forall; intros x Hx; exact Hx) Hh).
Qed.

Lemma zmax_bound l b : Forall (fun w => 0 <= w <= b) l -> 0 < zmax_list l -> zmax_list l <= b.
Proof. intros Hw H. apply (proj1 (Forall_forall _ _) Hw _ (fold_max_in l H)). Qed.
Lemma occ_pos s l : In s l -> 0 < occ s l.
Proof. intros H. unfold occ. apply (count_occ_In Z.eq_dec) in H. lia. Qed.

Lemma weight_hist_spec data : 1 <= zmax_list data ->
  let counts := weight_hist data in
  length counts = S (Z.to_nat (zmax_list data)) /\ Forall (fun c => 0 <= c) counts /\
  (forall i, (i < length counts)%nat -> nth i counts 0 = occ (Z.of_nat i) data) /\ 0 < last counts 0.
Proof.
  intros Hmax counts.
  assert (Lc : length counts = S (Z.to_nat (zmax_list data))) by (unfold counts, weight_hist; rewrite map_length, seq_length; reflexivity).
  assert (Hnth : forall i, (i < length counts)%nat -> nth i counts 0 = occ (Z.of_nat i) data).
  { intros i Hi. rewrite Lc in Hi. unfold counts, weight_hist.
    rewrite (nth_indep _ 0 (occ (Z.of_nat 0) data)) by (rewrite map_length, seq_length; exact Hi).
    rewrite (map_nth (fun n => occ (Z.of_nat n) data)), seq_nth by exact Hi. reflexivity. }
  split; [exact Lc|]. split; [|split; [exact Hnth|]].
  - apply Forall_forall. intros c Hc. apply in_map_iff in Hc as (n & <- & _). unfold occ. lia.
  - rewrite last_is_nth by (intros E; rewrite E in Lc; discriminate). rewrite Hnth by lia. rewrite Lc.
    replace (Z.of_nat (S (Z.to_nat (zmax_list data)) - 1)) with (zmax_list data) by lia. apply occ_pos, fold_max_in. fold (zmax_list data). lia.
Qed.

Theorem model_weight_description_roundtrip t data al probs d rest :
  t_max_symbol (ht_fse t) = 255 ->
  (2 <= length data <= 257)%nat -> Forall (fun w => 0 <= w <= 255) data -> 1 <= zmax_list data ->
  norm_counts (weight_hist data) 6 true = ROk (al, probs) -> desc_bytes al probs = Some d ->
  exists D, fse_build_from_probabilities (ht_fse t) al probs = ROk D /\
    let stream := stream_bytes (weight_fields (enc_of_dec D) data) in
    let header := zlen d + zlen stream in
    (header < 128 -> read_weights t (header :: d ++ stream ++ rest) = ROk (data, D, 1 + header)).
Proof.
  intros Hms Hl Hw Hmax Hn Hdesc.
  destruct (weight_hist_spec data Hmax) as (Lc & Hc0 & Hnth & Hlast). set (counts := weight_hist data) in *.
  destruct (norm_counts_normalised counts 6 al probs ltac:(lia) Hc0 Hlast ltac:(lia) Hn) as ((Hp1 & Hwt & Hlastp) & Hal & Lp & Np & Sp & Keep).
  pose proof (norm_counts_half_bounded counts 6 al probs ltac:(lia) Hc0 Hlast ltac:(lia) Hn) as Hhalf.
  assert (Hpb : Forall (fun p => -1 <= p <= 2 ^ (al - 1)) probs).
  { apply Forall_forall. intros p Hp. rewrite Forall_forall in Np, Hhalf. specialize (Np p Hp). specialize (Hhalf p Hp). lia. }
  assert (Hlen : (length probs <= 256)%nat).
  { rewrite Lp, Lc. pose proof (zmax_bound data 255 Hw ltac:(lia)). lia. }
  apply (fse_weight_description_for_every_half_bounded_distribution t al probs d data rest Hms Hal Hpb Hwt Hlastp Hlen Hdesc Hl).
  apply Forall_forall. intros x Hx. rewrite Forall_forall in Hw. pose proof (Hw x Hx) as Hx0. pose proof (fold_max_ge data x Hx : x <= zmax_list data) as Hxm.
  exists (Z.to_nat x). split; [lia|]. split; [rewrite Lp, Lc; lia|].
  assert (1 <= nth (Z.to_nat x) probs 0); [|lia]. apply Keep. rewrite Hnth by (rewrite Lc; lia). rewrite Z2Nat.id by lia. apply occ_pos. exact Hx.
Qed.

Theorem weight_description_exists data :
  (2 <= length data)%nat -> Forall (fun w => 0 <= w <= 11) data -> 1 <= zmax_list data ->
  exists al probs d, norm_counts (weight_hist data) 6 true = ROk (al, probs) /\ desc_bytes al probs = Some d.
Proof.
  intros Hl Hw Hmax.
  destruct (weight_hist_spec data Hmax) as (Lc & Hc0 & _ & Hlast). set (counts := weight_hist data) in *.
  pose proof (zmax_bound data 11 Hw ltac:(lia)) as Hzm.
  assert (Hlen2 : (2 <= length counts)%nat) by lia.
  assert (Hroom : Z.of_nat (length counts) <= 2 ^ 6) by (change (2 ^ 6) with 64; lia).
  destruct (norm_counts_total_gen counts 6 ltac:(lia) Hc0 Hlast Hlen2 Hroom) as (al & probs & En).
  destruct (norm_counts_normalised counts 6 al probs ltac:(lia) Hc0 Hlast Hlen2 En) as (Hdist & Hal & Lp & _).
  destruct (description_roundtrip al probs 255 6 [0] ltac:(lia) ltac:(lia) Hdist ltac:(rewrite Lp; lia) ltac:(discriminate)) as (d & Ed & _).
  exists al, probs, d. split; [exact En|exact Ed].
Qed.
