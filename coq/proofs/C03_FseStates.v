(** C03: FSE decoding states never leave the table.  For every table the decoder builds from a normalised distribution
    (accuracy log 5..9; the descriptions the format allows for sequences and Huffman weights), initialising a state and
    every state transition index inside the table, whatever the bit stream holds. *)
Require Import Zrs.lib.RsPrelude Zrs.model.BitIO Zrs.model.FseDec Zrs.model.FseEnc.
Require Import Zrs.proofs.C03_HufStream Zrs.proofs.C12_General.
Open Scope Z_scope.

Section States.
  Variable D : fse_table.
  Hypothesis Hal : 1 <= t_acc_log D.
  Hypothesis Hlen : Z.of_nat (length (t_decode D)) = 2 ^ t_acc_log D.
  Hypothesis Hrange : forall e, In e (t_decode D) ->
    0 <= e_bits e <= t_acc_log D /\ 0 <= e_base e /\ e_base e + 2 ^ e_bits e <= 2 ^ t_acc_log D.

  Lemma nth_e_in i : 0 <= i < 2 ^ t_acc_log D -> In (nth_e (t_decode D) i) (t_decode D).
  Proof. intros Hi. unfold nth_e. apply nth_In. lia. Qed.

  Theorem init_state_in_table br : rwf br ->
    exists st br', fse_init_state D br = ROk (st, br') /\ In st (t_decode D) /\ rwf br'.
  Proof.
    intros W. unfold fse_init_state, t_len. destruct (Z.eqb_spec (t_acc_log D) 0); [lia|].
    destruct (get_bits_wf br (t_acc_log D) W ltac:(lia)) as (W' & V & _). destruct (rbr_get_bits br (t_acc_log D)) as [v br']. cbn [fst snd] in *.
    destruct (Z.leb_spec (2 ^ t_acc_log D) v); [lia|]. eexists _, _. split; [reflexivity|]. split; [apply nth_e_in; lia|exact W'].
  Qed.

  Theorem update_state_in_table st br : In st (t_decode D) -> rwf br ->
    exists st' br', fse_update_state D st br = ROk (st', br') /\ In st' (t_decode D) /\ rwf br'.
  Proof.
    intros Hin W. destruct (Hrange st Hin) as (Hb & H0 & Hr).
    unfold fse_update_state, t_len. destruct (Z.eqb_spec (t_acc_log D) 0); [lia|].
    destruct (get_bits_wf br (e_bits st) W ltac:(lia)) as (W' & V & _). destruct (rbr_get_bits br (e_bits st)) as [v br']. cbn [fst snd] in *.
    destruct (Z.leb_spec (2 ^ t_acc_log D) (e_base st + v)); [lia|]. eexists _, _. split; [reflexivity|]. split; [apply nth_e_in; lia|exact W'].
  Qed.
End States.

Theorem built_table_states_stay_inside al probs ms :
  5 <= al <= 9 -> Forall (fun p => -1 <= p) probs -> weight probs = 2 ^ al ->
  (length probs <= 256)%nat -> Z.of_nat (length probs) <= ms + 1 ->
  exists D, fse_build_from_probabilities (fse_new ms) al probs = ROk D /\
    (forall br, rwf br -> exists st br', fse_init_state D br = ROk (st, br') /\ In st (t_decode D) /\ rwf br') /\
    (forall st br, In st (t_decode D) -> rwf br ->
       exists st' br', fse_update_state D st br = ROk (st', br') /\ In st' (t_decode D) /\ rwf br').
Proof.
  intros Hal Hp Hw Hlen Hms. destruct (general_table al probs ms Hal Hp Hw Hlen Hms) as (D & Eb & Hr & Hl & _).
  exists D. split; [exact Eb|].
  assert (Hlog : t_acc_log D = al).
  { unfold fse_build_from_probabilities in Eb. destruct (al =? 0); [discriminate|].
    destruct (build_decoding_table _ al probs) as [[dec counter]|e|e]; cbn [rbind] in Eb; try discriminate. injection Eb as <-. reflexivity. }
  rewrite <- Hlog in Hr, Hl, Hal.
  split; [exact (init_state_in_table D ltac:(lia) Hl)|exact (update_state_in_table D ltac:(lia) Hl Hr)].
Qed.
