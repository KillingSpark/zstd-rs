(** C12 / C01 / C14: the sequences section with ANY combination of the four table modes -- predefined, RLE, FSE
    compressed, repeat -- for the three tables.  Whatever the modes, the decoder ends up with the tables and RLE bytes
    the writer meant (built from the written description, from the default distribution, a single RLE byte, or kept from
    the previous block), and decodes the stream written with the encoders belonging to them into exactly the sequences
    that were coded. *)
Require Import Zrs.lib.RsPrelude Zrs.proofs.ModelFacts Zrs.lib.ListFacts Zrs.gen.Generated Zrs.model.FseDec Zrs.model.BlockDec.
Require Import Zrs.model.BitStream Zrs.model.SeqEnc Zrs.model.FseEnc Zrs.model.SeqSection.
Require Import Zrs.proofs.C12_SeqStream Zrs.proofs.C12_Predef Zrs.proofs.C12_Desc Zrs.proofs.C12_Section Zrs.proofs.C12_SeqStreamR.
Open Scope Z_scope.

Inductive tmode := MFse (al : Z) (P : list Z) (d : list Z) | MPredef | MRle (c : Z) | MRepeat.
Definition mcode (m : tmode) : Z := match m with MFse _ _ _ => 2 | MPredef => 0 | MRle _ => 1 | MRepeat => 3 end.
Definition mbytes (m : tmode) : list Z := match m with MFse _ _ d => d | MRle c => [c] | _ => [] end.
Definition modes_byte (mll mof mml : tmode) : Z := 64 * mcode mll + 16 * mcode mof + 4 * mcode mml.

(** the table [D] and RLE byte [rle] the decoder is meant to hold for a mode, given what it held before *)
Definition mtable (m : tmode) (prev : fse_table) (prev_rle : option Z) (max_log max_code def_log : Z) (def_dist : list Z)
           (D : fse_table) (rle : option Z) : Prop :=
  match m with
  | MFse al P d => 5 <= al <= max_log /\ max_log <= 20 /\ dist_ok al P /\ Z.of_nat (length P) <= t_max_symbol prev + 1 /\
                   desc_bytes al P = Some d /\ fse_build_from_probabilities prev al P = ROk D /\ rle = None
  | MPredef => fse_build_from_probabilities prev def_log def_dist = ROk D /\ rle = None
  | MRle c => D = prev /\ rle = Some c /\ c <= max_code
  | MRepeat => D = prev /\ rle = prev_rle
  end.

Lemma update_one_mode m prev prev_rle max_log M def_log def_dist err D rle rest :
  mtable m prev prev_rle max_log M def_log def_dist D rle -> rest <> [] ->
  update_one_table (mcode m) (mbytes m ++ rest) prev prev_rle max_log M def_log def_dist err = ROk (D, rle, zlen (mbytes m)).
Proof.
  intros Hm Hrest. unfold update_one_table. destruct m as [al P d| |c|]; cbn [mcode mbytes mtable Z.eqb Pos.eqb app] in *.
  - destruct Hm as (Hal & Hml & Hd & Hlen & Hdesc & Hb & ->).
    rewrite (build_decoder_of_description prev al P max_log rest D d) by (try assumption; lia). reflexivity.
  - destruct Hm as (-> & ->). reflexivity.
  - destruct Hm as (-> & -> & Hc). destruct (Z.ltb_spec M c); [lia|]. reflexivity.
  - destruct Hm as (-> & ->). reflexivity.
Qed.

Lemma mcode_range m : 0 <= mcode m <= 3.
Proof. destruct m; cbn; lia. Qed.

Definition enc_for (D : fse_table) (rle : option Z) : enc_table := match rle with None => enc_of_dec D | Some _ => E_rle end.
Definition tab_ready (D : fse_table) (rle : option Z) (syms : list Z) : Prop :=
  match rle with None => table_wf D /\ Forall (covers D) syms | Some c => syms = [c] end.
Lemma ready_agrees D rle syms : tab_ready D rle syms -> tagree D rle (enc_for D rle) syms.
Proof.
  unfold tab_ready, tagree, enc_for. destruct rle as [c|]; [intros ->; split; reflexivity|].
  intros (W & C). apply derived_encoder_agrees; assumption.
Qed.

Section Modes.
  Variables (mll mof mml : tmode).
  Variable s : fse_scratch.
  Variables (Dll Dof Dml : fse_table) (rll rof rml : option Z).
  Hypothesis Hll : mtable mll (fs_ll s) (fs_ll_rle s) LL_MAX_LOG MAX_LITERAL_LENGTH_CODE LL_DEFAULT_ACC_LOG LITERALS_LENGTH_DEFAULT_DISTRIBUTION Dll rll.
  Hypothesis Hof : mtable mof (fs_of s) (fs_of_rle s) OF_MAX_LOG MAX_OFFSET_CODE OF_DEFAULT_ACC_LOG OFFSET_DEFAULT_DISTRIBUTION Dof rof.
  Hypothesis Hml : mtable mml (fs_ml s) (fs_ml_rle s) ML_MAX_LOG MAX_MATCH_LENGTH_CODE ML_DEFAULT_ACC_LOG MATCH_LENGTH_DEFAULT_DISTRIBUTION Dml rml.

  Lemma tables_of_modes rest : rest <> [] ->
    maybe_update_fse_tables (Some (modes_byte mll mof mml)) (mbytes mll ++ mbytes mof ++ mbytes mml ++ rest) s =
      ROk (scr Dll rll Dml rml Dof rof, zlen (mbytes mll) + zlen (mbytes mof) + zlen (mbytes mml)).
  Proof.
    intros Hrest. unfold maybe_update_fse_tables, modes_byte.
    pose proof (mcode_range mll) as R1. pose proof (mcode_range mof) as R2. pose proof (mcode_range mml) as R3.
    replace ((64 * mcode mll + 16 * mcode mof + 4 * mcode mml) / 64) with (mcode mll) by lia.
    replace (((64 * mcode mll + 16 * mcode mof + 4 * mcode mml) / 16) mod 4) with (mcode mof) by lia.
    replace (((64 * mcode mll + 16 * mcode mof + 4 * mcode mml) / 4) mod 4) with (mcode mml) by lia.
    cbv zeta. clear R1 R2 R3.
    rewrite (update_one_mode mll _ _ _ _ _ _ _ Dll rll _ Hll) by auto using app_nonempty_r. cbn [rbind].
    rewrite short_app, drop_app.
    rewrite (update_one_mode mof _ _ _ _ _ _ _ Dof rof _ Hof) by auto using app_nonempty_r. cbn [rbind].
    rewrite <- zlen_app, (app_assoc (mbytes mll)), short_app, drop_app.
    rewrite (update_one_mode mml _ _ _ _ _ _ _ Dml rml _ Hml Hrest). cbn [rbind]. rewrite zlen_app. reflexivity.
  Qed.

  Variables (sl sm so : list Z).
  Hypothesis Rll : tab_ready Dll rll sl.
  Hypothesis Rml : tab_ready Dml rml sm.
  Hypothesis Rof : tab_ready Dof rof so.

  Theorem sequence_section_roundtrip_modes qs : qs <> [] -> Forall cseq_ok qs -> Forall (q_in sl sm so) qs ->
    let stream := stream_bytes (enc_fields (enc_for Dll rll) (enc_for Dml rml) (enc_for Dof rof) qs) in
    exists vals,
      decode_sequences (Z.of_nat (length qs)) (Some (modes_byte mll mof mml)) (mbytes mll ++ mbytes mof ++ mbytes mml ++ stream) s =
        ROk (scr Dll rll Dml rml Dof rof, vals) /\
      Forall2 (fun q v => cseq_value q = Some v) qs vals.
  Proof.
    intros Hne Hok Hin stream.
    destruct (sequences_stream_roundtrip_r _ _ _ Dll Dml Dof rll rml rof sl sm so (ready_agrees _ _ _ Rll) (ready_agrees _ _ _ Rml) (ready_agrees _ _ _ Rof) qs Hne Hok Hin)
      as (r0 & ll & r1 & of & r2 & ml & r3 & vals & rf & S0 & I1 & I2 & I3 & Hloop & Hv & Hrem).
    fold stream in S0.
    exists vals. split; [|exact Hv].
    unfold decode_sequences. rewrite tables_of_modes by apply stream_bytes_nonempty. cbn [rbind].
    rewrite <- !zlen_app, !app_assoc, short_app, drop_app.
    rewrite S0. cbn [scr fs_ll_rle fs_of_rle fs_ml_rle fs_ll fs_of fs_ml].
    unfold start_of in I1, I2, I3. rewrite I1. cbn [rbind]. rewrite I2. cbn [rbind]. rewrite I3. cbn [rbind].
    rewrite Nat2Z.id. fold (scr Dll rll Dml rml Dof rof). rewrite Hloop. cbn [rbind]. rewrite Hrem.
    change (0 <? 0) with false. cbv iota. rewrite rev'_rev, rev_involutive. reflexivity.
  Qed.
End Modes.

Lemma predef_mode ms al dist D syms prev rle max_log :
  fse_build_from_probabilities (fse_new ms) al dist = ROk D /\ table_wf D /\ Forall (covers D) syms ->
  t_max_symbol prev = ms -> mtable MPredef prev rle max_log ms al dist D None /\ tab_ready D None syms.
Proof. intros (B & W & C) Hm. split; [|split; assumption]. cbn [mtable]. rewrite build_indep, Hm. split; [exact B|reflexivity]. Qed.

Lemma predef_mode_ll prev rle : t_max_symbol prev = MAX_LITERAL_LENGTH_CODE ->
  mtable MPredef prev rle LL_MAX_LOG MAX_LITERAL_LENGTH_CODE LL_DEFAULT_ACC_LOG LITERALS_LENGTH_DEFAULT_DISTRIBUTION D_ll None /\ tab_ready D_ll None (codes 36).
Proof. exact (predef_mode _ _ _ _ _ prev rle _ ll_ready). Qed.
Lemma predef_mode_of prev rle : t_max_symbol prev = MAX_OFFSET_CODE ->
  mtable MPredef prev rle OF_MAX_LOG MAX_OFFSET_CODE OF_DEFAULT_ACC_LOG OFFSET_DEFAULT_DISTRIBUTION D_of None /\ tab_ready D_of None (codes 29).
Proof. exact (predef_mode _ _ _ _ _ prev rle _ of_ready). Qed.
Lemma predef_mode_ml prev rle : t_max_symbol prev = MAX_MATCH_LENGTH_CODE ->
  mtable MPredef prev rle ML_MAX_LOG MAX_MATCH_LENGTH_CODE ML_DEFAULT_ACC_LOG MATCH_LENGTH_DEFAULT_DISTRIBUTION D_ml None /\ tab_ready D_ml None (codes 53).
Proof. exact (predef_mode _ _ _ _ _ prev rle _ ml_ready). Qed.
Lemma rle_mode c prev prev_rle max_log max_code def_log def_dist : c <= max_code ->
  mtable (MRle c) prev prev_rle max_log max_code def_log def_dist prev (Some c) /\ tab_ready prev (Some c) [c].
Proof. intros H. split; [split; [reflexivity|split; [reflexivity|exact H]]|reflexivity]. Qed.
(** repeat: whatever the decoder held -- a table or an RLE byte -- is used again *)
Lemma repeat_mode prev prev_rle max_log max_code def_log def_dist :
  mtable MRepeat prev prev_rle max_log max_code def_log def_dist prev prev_rle.
Proof. split; reflexivity. Qed.

Lemma fse_mode d bytes prev prev_rle max_log max_code def_log def_dist D :
  dist_side_b d max_log max_code = true -> max_log <= 20 -> t_max_symbol prev = max_code ->
  desc_bytes (fst d) (snd d) = Some bytes -> build_table max_code d = ROk D ->
  mtable (MFse (fst d) (snd d) bytes) prev prev_rle max_log max_code def_log def_dist D None.
Proof.
  intros Hs Hm M E B. destruct (dist_side_ok _ _ _ Hs) as (D1 & A1 & L1).
  cbn [mtable]. rewrite build_indep, M. exact (conj A1 (conj Hm (conj D1 (conj L1 (conj E (conj B eq_refl)))))).
Qed.

(** [section_bytes] writes all three tables FSE compressed: mode byte 0xA8 *)
Theorem section_bytes_roundtrip dl do dm seqs bytes s :
  section_hyps_b dl do dm seqs = true -> section_bytes dl do dm seqs = ROk bytes ->
  t_max_symbol (fs_ll s) = MAX_LITERAL_LENGTH_CODE -> t_max_symbol (fs_of s) = MAX_OFFSET_CODE ->
  t_max_symbol (fs_ml s) = MAX_MATCH_LENGTH_CODE ->
  exists Dll Dml Dof,
    build_table MAX_LITERAL_LENGTH_CODE dl = ROk Dll /\ build_table MAX_MATCH_LENGTH_CODE dm = ROk Dml /\
    build_table MAX_OFFSET_CODE do = ROk Dof /\
    decode_sequences (Z.of_nat (length seqs)) (Some MODES_ALL_ENCODED) bytes s = ROk (sc Dll Dml Dof, seqs).
Proof.
  unfold section_hyps_b, section_bytes. intros Hh Hb M1 M2 M3.
  destruct (map_res to_cseq seqs) as [qs|e|e] eqn:Eq; try discriminate.
  destruct (build_table MAX_LITERAL_LENGTH_CODE dl) as [Dll|e|e] eqn:B1; try discriminate.
  destruct (build_table MAX_OFFSET_CODE do) as [Dof|e|e] eqn:B2; try discriminate.
  destruct (build_table MAX_MATCH_LENGTH_CODE dm) as [Dml|e|e] eqn:B3; try discriminate.
  cbn [rbind] in Hb.
  destruct (desc_bytes (fst dl) (snd dl)) as [a|] eqn:E1; [|discriminate].
  destruct (desc_bytes (fst do) (snd do)) as [b|] eqn:E2; [|discriminate].
  destruct (desc_bytes (fst dm) (snd dm)) as [c|] eqn:E3; [|discriminate].
  injection Hb as <-.
  rewrite !andb_true_iff in Hh. destruct Hh as ((((((((S1 & S2) & S3) & W1) & W2) & W3) & Hcov) & Hne) & Hrange).
  destruct (map_res_to_cseq seqs qs Hrange Eq) as (Qok & Qv & Ql).
  exists Dll, Dml, Dof. repeat split; try reflexivity.
  assert (Hqs : qs <> []) by (destruct seqs; [discriminate Hne|destruct qs; [discriminate Ql|discriminate]]).
  assert (Cov : Forall (fun q => covers Dll (c_ll q) /\ covers Dml (c_ml q) /\ covers Dof (c_of q)) qs).
  { apply Forall_forall. intros q Hq. rewrite forallb_forall in Hcov. specialize (Hcov q Hq).
    rewrite !andb_true_iff in Hcov. destruct Hcov as ((C1 & C2) & C3). auto using covers_b_sound. }
  assert (C1 : Forall (covers Dll) (map c_ll qs)) by (apply Forall_map; revert Cov; apply Forall_impl; tauto).
  assert (C2 : Forall (covers Dml) (map c_ml qs)) by (apply Forall_map; revert Cov; apply Forall_impl; tauto).
  assert (C3 : Forall (covers Dof) (map c_of qs)) by (apply Forall_map; revert Cov; apply Forall_impl; tauto).
  assert (Hin : Forall (q_in (map c_ll qs) (map c_ml qs) (map c_of qs)) qs).
  { apply Forall_forall. intros q Hq. unfold q_in. repeat split; apply in_map; exact Hq. }
  destruct (sequence_section_roundtrip_modes _ _ _ s Dll Dof Dml None None None
              (fse_mode dl a _ _ _ _ _ _ _ S1 ltac:(discriminate) M1 E1 B1) (fse_mode do b _ _ _ _ _ _ _ S2 ltac:(discriminate) M2 E2 B2)
              (fse_mode dm c _ _ _ _ _ _ _ S3 ltac:(discriminate) M3 E3 B3)
              (map c_ll qs) (map c_ml qs) (map c_of qs)
              (conj (table_wf_b_sound _ W1) C1) (conj (table_wf_b_sound _ W3) C2) (conj (table_wf_b_sound _ W2) C3) qs Hqs Qok Hin)
    as (vals & Hdec & Hv).
  rewrite <- Ql, (forall2_value_unique qs seqs vals Qv Hv). exact Hdec.
Qed.

(** example: literal lengths in RLE mode (code 3), offsets repeated from the block before (here: a predefined table),
    match lengths predefined; two sequences *)
Definition ex_q : cseq := {| c_ll := 3; a_ll := 0; n_ll := 0%nat; c_ml := 2; a_ml := 0; n_ml := 0%nat; c_of := 5; a_of := 17 |}.
Definition ex_stream : list Z := stream_bytes (enc_fields E_rle (enc_of_dec D_ml) (enc_of_dec D_of) [ex_q; ex_q]).
Example modes_example :
  match decode_sequences 2 (Some (modes_byte (MRle 3) MRepeat MPredef)) (3 :: ex_stream) (sc D_ll D_ml D_of) with
  | ROk (s', vals) => vals = [{| sq_ll := 3; sq_ml := 5; sq_of := 49 |}; {| sq_ll := 3; sq_ml := 5; sq_of := 49 |}] /\ fs_ll_rle s' = Some 3
  | _ => False
  end.
Proof. vm_compute. split; reflexivity. Qed.
