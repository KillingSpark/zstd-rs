(** C17: the chunked comparison of the source ([mismatch_chunks::<8>]) is the byte-wise common-prefix length the
    matcher model uses, for every chunk length N > 0 and all slices. *)
Require Import Zrs.lib.RsPrelude Zrs.lib.ListFacts Zrs.model.Matcher Zrs.model.MatcherChunks.
Open Scope nat_scope.

Lemma zlist_eqb_eq : forall a b, zlist_eqb a b = true -> a = b.
Proof.
  induction a as [|x a IH]; intros [|y b] H; cbn in H; try discriminate; [reflexivity|].
  apply andb_true_iff in H. destruct H as [H1 H2]. apply Z.eqb_eq in H1. f_equal; [exact H1|apply IH; exact H2].
Qed.

Lemma common_prefix_chunk : forall N xs ys, N <= length xs -> N <= length ys -> firstn N xs = firstn N ys ->
  common_prefix xs ys = N + common_prefix (skipn N xs) (skipn N ys).
Proof.
  induction N as [|N IH]; intros xs ys Hx Hy E; [reflexivity|].
  destruct xs as [|x xs]; [cbn in Hx; lia|]. destruct ys as [|y ys]; [cbn in Hy; lia|].
  cbn [firstn] in E. assert (Exy : x = y) by congruence. assert (E' : firstn N xs = firstn N ys) by congruence.
  cbn [common_prefix skipn length] in *. subst y. rewrite Z.eqb_refl. rewrite (IH xs ys); [lia|lia|lia|exact E'].
Qed.

Lemma chunk_test N xs ys :
  (N <=? length xs) && (N <=? length ys) && zlist_eqb (firstn N xs) (firstn N ys) = true ->
  N <= length xs /\ N <= length ys /\ firstn N xs = firstn N ys.
Proof.
  intros C. apply andb_true_iff in C. destruct C as [C C3]. apply andb_true_iff in C. destruct C as [C1 C2].
  apply Nat.leb_le in C1. apply Nat.leb_le in C2. apply zlist_eqb_eq in C3. repeat split; assumption.
Qed.

Lemma equal_chunks_spec : forall N fuel xs ys, 0 < N ->
  let off := equal_chunks N fuel xs ys * N in
  off + common_prefix (skipn off xs) (skipn off ys) = common_prefix xs ys.
Proof.
  intros N fuel. induction fuel as [|f IH]; intros xs ys HN; [reflexivity|].
  cbn [equal_chunks].
  destruct (_ && zlist_eqb _ _) eqn:C; [|reflexivity].
  apply chunk_test in C. destruct C as (C1 & C2 & C3).
  cbv zeta in *. rewrite (common_prefix_chunk N xs ys C1 C2 C3), <- (IH (skipn N xs) (skipn N ys) HN).
  cbn [Nat.mul]. rewrite !skipn_add. lia.
Qed.

Theorem mismatch_chunks_is_common_prefix : forall N xs ys, 0 < N -> mismatch_chunks N xs ys = common_prefix xs ys.
Proof. intros N xs ys HN. unfold mismatch_chunks. apply (equal_chunks_spec N (length xs) xs ys HN). Qed.

Theorem common_prefix_len_is_common_prefix : forall a b, common_prefix_len a b = common_prefix a b.
Proof. intros a b. apply mismatch_chunks_is_common_prefix. lia. Qed.

Lemma equal_chunks_le : forall N fuel xs ys, 0 < N -> equal_chunks N fuel xs ys * N <= length xs.
Proof.
  intros N fuel. induction fuel as [|f IH]; intros xs ys HN; cbn [equal_chunks]; [lia|].
  destruct (_ && zlist_eqb _ _) eqn:C; [|lia].
  apply chunk_test in C. specialize (IH (skipn N xs) (skipn N ys) HN). rewrite skipn_length in IH. lia.
Qed.

Lemma equal_chunks_S N f xs ys : equal_chunks N (S f) xs ys =
  if (N <=? length xs) && (N <=? length ys) && zlist_eqb (firstn N xs) (firstn N ys)
  then S (equal_chunks N f (skipn N xs) (skipn N ys)) else 0.
Proof. reflexivity. Qed.

Lemma fuel_enough : forall N fuel xs ys, 0 < N -> length xs <= fuel ->
  equal_chunks N fuel xs ys = equal_chunks N (S fuel) xs ys.
Proof.
  intros N fuel. induction fuel as [|f IH]; intros xs ys HN Hl.
  - destruct xs; [|cbn in Hl; lia]. destruct N; [lia|]. reflexivity.
  - rewrite (equal_chunks_S N (S f)), (equal_chunks_S N f).
    destruct (_ && zlist_eqb _ _) eqn:C; [|reflexivity].
    apply chunk_test in C. f_equal. apply IH; [exact HN|]. rewrite skipn_length. lia.
Qed.

Example chunks_non_vacuous :
  common_prefix_len [1;2;3;4;5;6;7;8;9;10;11;12;13;14;15;16;17;18;19]%Z [1;2;3;4;5;6;7;8;9;10;11;12;13;14;15;16;17;18;0;1]%Z = 18
  /\ equal_chunks 8 19 [1;2;3;4;5;6;7;8;9;10;11;12;13;14;15;16;17;18;19]%Z [1;2;3;4;5;6;7;8;9;10;11;12;13;14;15;16;17;18;0;1]%Z = 2.
Proof. vm_compute. split; reflexivity. Qed.
