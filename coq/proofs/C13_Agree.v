(** C13: the compressor's code and the decoder's table agree -- for EVERY weight list the decoder accepts.  The code
    [build_from_weights] of the compressor gives a symbol (all weights including the last one, which the decoder infers)
    is exactly the code word read off the decoder's table for that symbol, with the same length. *)
Require Import Zrs.lib.RsPrelude Zrs.model.BitIO Zrs.model.FseDec Zrs.model.HufDec Zrs.model.LitEnc Zrs.model.HufEnc.
Require Import Zrs.proofs.C03_HufTable Zrs.proofs.C03_HufComplete Zrs.proofs.C13_Canonical Zrs.proofs.C13_CanonCode Zrs.proofs.C13_EncCanon.
Open Scope Z_scope.

Definition bits_of (M : Z) (w : Z) : Z := if 0 <? w then M + 1 - w else 0.

Theorem built_table_code_values ws dec M bits ranks idxs t : Forall (fun w => 0 <= w) ws -> (length ws <= 255)%nat ->
  build_table_from_weights ws = ROk (dec, M, bits, ranks, idxs) -> ht_decode t = dec -> ht_max_bits t = M ->
  forall j, (j < length bits)%nat -> 0 < nth j bits 0 ->
    let x := nth j bits 0 in
    code_of_dec t (Z.of_nat j) = ((region M ranks (Z.to_nat (M - x)) + cnt x (firstn j bits) * 2 ^ (M - x)) / 2 ^ (M - x), Z.to_nat x).
Proof.
  intros Hnn Hlen Hb Hd Hm j Hj Hpos x. subst dec M.
  destruct (built_table_blocks ws _ _ bits ranks idxs Hnn Hlen Hb) as (placed & ND & Hblk & Hcover & Hsyms).
  destruct (build_table_inv ws _ _ bits ranks idxs Hnn Hb) as (_ & _ & _ & HM & _ & Hbits & _).
  destruct (built_huffman_table_complete ws _ _ bits ranks idxs Hnn Hb) as (Ldec & _).
  destruct (Hsyms j Hj Hpos) as (base & Hin & Ebase). fold x in Hin, Ebase.
  rewrite Forall_forall in Hbits. pose proof (Hbits _ (nth_In bits 0 Hj)) as Hx. fold x in Hx.
  rewrite (block_code t bits placed ND Hblk Hcover Ldec _ _ _ Hin), <- Ebase, !Z2Nat.id by lia. do 2 f_equal. lia.
Qed.

(** the weights up to w - 1 fill the region of the codes longer than the symbol's ([region_below]) *)
Lemma enc_code_at_canonical_place M W ranks codes : 1 <= M -> Forall (fun w => 0 <= w <= M) W -> kraft W = 2 ^ M ->
  (forall b, 0 <= b -> nth_z ranks b = cnt b (map (bits_of M) W)) -> enc_build_from_weights W = ROk codes ->
  forall j, (j < length W)%nat -> 0 < nth j W 0 ->
    let x := bits_of M (nth j W 0) in
    nth j codes (0, 0) = ((region M ranks (Z.to_nat (M - x)) + cnt x (firstn j (map (bits_of M) W)) * 2 ^ (M - x)) / 2 ^ (M - x), x).
Proof.
  intros HM HW Hk Gr Henc j Hj Hpos. set (w := nth j W 0) in *.
  assert (Hwr : 1 <= w <= M) by (rewrite Forall_forall in HW; pose proof (HW w ltac:(apply nth_In; exact Hj)); lia).
  unfold bits_of at 1. assert (0 <? w = true) as -> by lia. cbv zeta. replace (M - (M + 1 - w)) with (w - 1) by lia.
  assert (HW' : Forall (fun w => 0 <= w <= Z.of_nat (Z.to_nat M)) W) by (rewrite Z2Nat.id by lia; exact HW).
  pose proof (enc_codes_closed_form W _ codes HW' Henc (Z.of_nat j) ltac:(lia)) as EC. cbv zeta in EC.
  rewrite Nat2Z.id, (nth_indep W (-1) 0 Hj) in EC. fold w in EC. rewrite (EC Hpos), Hk, Z.log2_pow2 by lia.
  rewrite (region_below M ranks W HM HW Gr) by lia. unfold bits_of. rewrite firstn_map, cnt_code_lengths.
  - rewrite Z.div_add by (pose proof (Z.pow_pos_nonneg 2 (w - 1) ltac:(lia) ltac:(lia)); lia).
    replace (M + 1 - (M + 1 - w)) with w by lia. f_equal. lia.
  - lia.
  - rewrite Forall_forall in *. intros y Hy. apply HW. rewrite <- (firstn_skipn j W). apply in_or_app. left. exact Hy.
Qed.

Theorem encoder_and_decoder_agree ws dec M bits ranks idxs t : Forall (fun w => 0 <= w) ws -> (length ws <= 255)%nat ->
  build_table_from_weights ws = ROk (dec, M, bits, ranks, idxs) -> ht_decode t = dec -> ht_max_bits t = M ->
  exists lw codes, 1 <= lw <= M /\ enc_build_from_weights (ws ++ [lw]) = ROk codes /\
    (forall s, 0 <= s <= Z.of_nat (length ws) -> 0 < nth (Z.to_nat s) (ws ++ [lw]) 0 ->
      code_of_dec t s = (fst (nth (Z.to_nat s) codes (0, 0)), Z.to_nat (snd (nth (Z.to_nat s) codes (0, 0))))) /\
    (* the last weight is the one the decoder infers: its code length is the last of the decoder's *)
    bits = map (bits_of M) (ws ++ [lw]).
Proof.
  intros Hnn Hlen Hb Hd Hm.
  destruct (build_table_inv _ _ _ _ _ _ Hnn Hb) as (_ & _ & Eb & HM & HW & _ & Hk & Gr).
  set (lw := highest_bit_set (2 ^ M - kraft ws)) in *. set (W := ws ++ [lw]) in *.
  assert (Eb' : bits = map (bits_of M) W) by exact Eb.
  assert (Hpow : is_pow2z (kraft W) = true).
  { unfold is_pow2z. rewrite Hk, Z.log2_pow2 by lia. pose proof (Z.pow_pos_nonneg 2 M ltac:(lia) ltac:(lia)). apply andb_true_intro. split; lia. }
  assert (LW : length W = S (length ws)) by (unfold W; rewrite app_length; cbn [length]; lia).
  exists lw. fold W. unfold enc_build_from_weights at 1. rewrite Hpow. cbn [negb]. eexists. split; [|split; [reflexivity|split; [|exact Eb']]].
  { rewrite Forall_forall in HW. pose proof (HW lw ltac:(apply in_or_app; right; left; reflexivity)).
    pose proof (Z.log2_nonneg (2 ^ M - kraft ws)). unfold lw, highest_bit_set in *. lia. }
  intros s Hs Hpos. assert (HjW : (Z.to_nat s < length W)%nat) by lia.
  assert (Hj : (Z.to_nat s < length bits)%nat) by (rewrite Eb', map_length; lia).
  assert (Ex : nth (Z.to_nat s) bits 0 = bits_of M (nth (Z.to_nat s) W 0)).
  { rewrite Eb'. rewrite (nth_indep _ 0 (bits_of M 0)) by (rewrite map_length; lia). apply map_nth. }
  assert (Hx : 0 < nth (Z.to_nat s) bits 0).
  { rewrite Ex. unfold bits_of. rewrite Forall_forall in HW. pose proof (HW _ (nth_In W 0 HjW)). destruct (Z.ltb_spec 0 (nth (Z.to_nat s) W 0)); lia. }
  pose proof (built_table_code_values ws dec M bits ranks idxs t Hnn Hlen Hb Hd Hm (Z.to_nat s) Hj Hx) as DC.
  cbv zeta in DC. rewrite Z2Nat.id in DC by lia. rewrite DC.
  rewrite (enc_code_at_canonical_place M W ranks _ ltac:(lia) HW Hk ltac:(rewrite <- Eb'; exact Gr) ltac:(unfold enc_build_from_weights; rewrite Hpow; reflexivity) (Z.to_nat s) HjW Hpos).
  cbv zeta. rewrite <- Eb', <- Ex. reflexivity.
Qed.
