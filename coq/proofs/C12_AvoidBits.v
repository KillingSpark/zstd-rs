(** C12 / C13: a distribution in which no probability exceeds half the table size gives a table in which every state
    carries at least one bit (what the "avoid zero bits" option of the table builder establishes, and what the two-state
    weight stream of the Huffman table description needs to terminate, C13_WeightStream). *)
Require Import Zrs.lib.RsPrelude Zrs.model.FseDec Zrs.model.FseEnc.
Require Import Zrs.proofs.C12_Fse Zrs.proofs.C12_SeqStream Zrs.proofs.C12_General.
Open Scope Z_scope.

Definition entries_carry_a_bit (D : fse_table) : Prop :=
  Forall (fun e => 1 <= e_bits e /\ e_base e < t_len D) (t_decode D).

Theorem half_bounded_distribution_carries_bits al probs ms :
  5 <= al <= 9 -> Forall (fun p => -1 <= p <= 2 ^ (al - 1)) probs -> weight probs = 2 ^ al ->
  (length probs <= 256)%nat -> Z.of_nat (length probs) <= ms + 1 ->
  exists D, fse_build_from_probabilities (fse_new ms) al probs = ROk D /\ entries_carry_a_bit D /\ table_wf D /\
    (forall i, (i < length probs)%nat -> nth i probs 0 <> 0 -> covers D (Z.of_nat i)).
Proof.
  intros Hal Hp Hw Hlen Hms.
  assert (Hp1 : Forall (fun p => -1 <= p) probs) by (eapply Forall_impl; [|exact Hp]; intros a Ha; cbv beta in *; lia).
  destruct (general_table_full al probs ms Hal Hp1 Hw Hlen Hms) as (D & Eb & Hr & Hl & Hc & Hfrom).
  exists D. split; [exact Eb|].
  assert (Hlog : t_acc_log D = al).
  { unfold fse_build_from_probabilities in Eb. destruct (al =? 0); [discriminate|].
    destruct (build_decoding_table _ al probs) as [[dec counter]|e|e]; cbn [rbind] in Eb; try discriminate. injection Eb as <-. reflexivity. }
  assert (Hlen' : t_len D = 2 ^ al) by (unfold t_len; rewrite Hlog; destruct (Z.eqb_spec al 0); [lia|reflexivity]).
  split; [|split; [|exact Hc]].
  - apply Forall_forall. intros e He. destruct (Hr e He) as (Hb & H0 & Hrg).
    assert (P : 0 < 2 ^ e_bits e) by (apply Z.pow_pos_nonneg; lia).
    split; [|rewrite Hlen'; lia].
    destruct (Hfrom e He) as [E|(p & k & Hin & Hp1' & Hk & E)]; [lia|].
    rewrite E. rewrite Forall_forall in Hp. specialize (Hp p Hin). apply state_bits_positive; lia.
  - unfold table_wf. rewrite Hlen'. split; [exact Hl|]. split; [|lia].
    apply Forall_forall. intros e He. destruct (Hr e He) as (Hb & _). lia.
Qed.
