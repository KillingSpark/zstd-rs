(** C06 / C05 / C08: decode_blocks and the drain entry points of the frame decoder as seen by the caller. *)
Require Import Zrs.lib.RsPrelude Zrs.lib.ResFacts Zrs.gen.Generated Zrs.model.BlockDec Zrs.model.FrameDec.
Require Import Zrs.proofs.C06_Drain Zrs.proofs.C05_Block.

(** what a strategy allows beyond the one block that is always decoded *)
Definition budget (strat : strategy) : Z :=
  match strat with SAll => 0 | SUptoBytes n => Z.max n 0 | SUptoBlocks k => MAX_BLOCK_SIZE * (Z.max k 1 - 1) end.

Theorem decode_blocks_spec d src strat d' rest fin s :
  fd_state d = Some s -> st_ok s -> bytes_ok src = true ->
  fdec_decode_blocks d src strat = ROk (d', rest, fin) ->
  exists s', fd_state d' = Some s' /\ st_ok s' /\ fd_dicts d' = fd_dicts d /\ fd_max_window d' = fd_max_window d /\
    db_same_meta (st_buf s) (st_buf s') /\ fr_header s' = fr_header s /\
    fr_bytes_read s' - fr_bytes_read s = Z.of_nat (length src) - Z.of_nat (length rest) /\
    (* memory bound: what was asked for plus one block *)
    (strat <> SAll -> db_len (st_buf s') <= db_len (st_buf s) + budget strat + MAX_BLOCK_SIZE) /\
    db_len (st_buf s) <= db_len (st_buf s').
Proof.
  intros Hd Hs B H. unfold fdec_decode_blocks in H. rewrite Hd in H.
  bind_inv H. destruct a as [s' r]. injection H as Hd' Hr Hf. subst d' rest fin.
  destruct (decode_blocks_loop_inv _ _ _ _ _ _ _ _ Hs B E) as (I1 & I2 & I3 & I4 & I5 & I6 & I7).
  exists s'. cbn [fdec_with_state fd_state fd_dicts fd_max_window].
  split; [reflexivity|]. split; [exact I1|]. split; [reflexivity|]. split; [reflexivity|].
  split; [exact I2|]. split; [exact I3|]. split; [exact I4|]. split; [|exact I5].
  intros NS. specialize (I7 NS). unfold strat_bound, budget, st_buf in *.
  rewrite max_block_size_val in *. destruct strat; [congruence| |]; lia.
Qed.

(** what a drain entry point does to the frame state: a prefix of the buffer leaves it and is hashed, nothing else changes *)
Definition same_but_buf (s s' : fstate) : Prop :=
  fr_header s' = fr_header s /\ fr_finished s' = fr_finished s /\ fr_blocks s' = fr_blocks s /\
  fr_bytes_read s' = fr_bytes_read s /\ fr_checksum s' = fr_checksum s /\ fr_using_dict s' = fr_using_dict s /\
  sc_huf (fr_scratch s') = sc_huf (fr_scratch s) /\ sc_fse (fr_scratch s') = sc_fse (fr_scratch s) /\
  sc_hist (fr_scratch s') = sc_hist (fr_scratch s) /\
  db_dict (st_buf s') = db_dict (st_buf s) /\ db_window (st_buf s') = db_window (st_buf s) /\
  db_total_out (st_buf s') = db_total_out (st_buf s).

Definition drained (s s' : fstate) (out : list Z) : Prop :=
  same_but_buf s s' /\ st_ok s' /\
  out ++ db_all (st_buf s') = db_all (st_buf s) /\ db_hashed (st_buf s') = db_hashed (st_buf s) ++ out.

(** every drain entry point replaces the buffer of the state by one that [drained_to] relates to it *)
Lemma set_buf_drained d s b out : st_ok s -> drained_to (st_buf s) out b ->
  exists s', fd_state (fdec_with_state d (st_set_buf s b)) = Some s' /\ drained s s' out /\
    db_len (st_buf s') = db_len (st_buf s) - Z.of_nat (length out).
Proof.
  intros [W Hh] (A & Hs & Wb & L & D & Wi & T). exists (st_set_buf s b). split; [reflexivity|]. split; [|exact L].
  unfold drained, same_but_buf, st_ok, scratch_ok, st_set_buf, st_buf. cbn. repeat split; assumption.
Qed.

Theorem collect_spec d s out d' : fd_state d = Some s -> st_ok s -> fdec_collect d = (Some out, d') ->
  exists s', fd_state d' = Some s' /\ drained s s' out /\
    (st_is_finished s = false -> Z.min (db_window (st_buf s)) (db_len (st_buf s)) <= db_len (st_buf s')).
Proof.
  intros Hd Hs H. unfold fdec_collect in H. rewrite Hd in H. pose proof Hs as [W _]. fold (st_buf s) in W.
  pose proof (wf_len_nonneg _ W) as L.
  destruct (st_is_finished s) eqn:Ef.
  - unfold db_drain_all in H. pose proof (take_front_spec (st_buf s) (db_len (st_buf s)) W ltac:(lia)) as T.
    destruct (db_take_front (st_buf s) (db_len (st_buf s))) as [o b]. injection H as <- <-. destruct T as [T _].
    destruct (set_buf_drained d s b o Hs T) as (s' & E & Dr & _). exists s'. split; [exact E|]. split; [exact Dr|discriminate].
  - unfold db_can_drain_to_window in H. destruct (db_window (st_buf s) <? db_len (st_buf s)) eqn:Ew; [|discriminate].
    pose proof (drain_amount_spec (st_buf s) (db_len (st_buf s) - db_window (st_buf s)) W ltac:(lia)) as T.
    destruct (db_drain_amount (st_buf s) (db_len (st_buf s) - db_window (st_buf s))) as [o b]. injection H as <- <-.
    destruct T as [T Lo].
    destruct (set_buf_drained d s b o Hs T) as (s' & E & Dr & Ls). exists s'. split; [exact E|]. split; [exact Dr|lia].
Qed.

Theorem read_spec d s n out d' : fd_state d = Some s -> st_ok s -> 0 <= n -> fdec_read d n = (out, d') ->
  exists s', fd_state d' = Some s' /\ drained s s' out /\ Z.of_nat (length out) <= n /\
    (fr_finished s = false -> Z.min (db_window (st_buf s)) (db_len (st_buf s)) <= db_len (st_buf s')).
Proof.
  intros Hd Hs Hn H. unfold fdec_read in H. rewrite Hd in H. pose proof Hs as [W _]. fold (st_buf s) in W.
  pose proof (wf_len_nonneg _ W) as L.
  destruct (fr_finished s) eqn:Ef.
  - unfold db_read_all in H.
    pose proof (drain_amount_spec (st_buf s) (Z.min (db_len (st_buf s)) n) W ltac:(lia)) as T.
    destruct (db_drain_amount (st_buf s) (Z.min (db_len (st_buf s)) n)) as [o b]. injection H as <- <-. destruct T as [T Lo].
    destruct (set_buf_drained d s b o Hs T) as (s' & E & Dr & _).
    exists s'. split; [exact E|]. split; [exact Dr|]. split; [lia|discriminate].
  - pose proof (db_read_spec (st_buf s) n W Hn) as T.
    destruct (db_read (st_buf s) n) as [o b]. injection H as <- <-. destruct T as (T & Lo & R).
    destruct (set_buf_drained d s b o Hs T) as (s' & E & Dr & Ls).
    destruct T as (_ & _ & _ & Lb & _). exists s'. split; [exact E|]. split; [exact Dr|]. split; lia.
Qed.

Theorem collect_to_writer_spec St (sstep : St -> Z -> sink_resp * St) d s split st out d' ok st' :
  fd_state d = Some s -> st_ok s -> 0 <= db_window (st_buf s) ->
  fdec_collect_to_writer sstep d split st = (out, d', ok, st') ->
  exists s', fd_state d' = Some s' /\ drained s s' out /\
    (st_is_finished s = false -> Z.min (db_window (st_buf s)) (db_len (st_buf s)) <= db_len (st_buf s')).
Proof.
  intros Hd Hs Hw H. unfold fdec_collect_to_writer in H. rewrite Hd in H. pose proof Hs as [W _]. fold (st_buf s) in W.
  pose proof (wf_len_nonneg _ W) as L.
  set (amount := if st_is_finished s then db_len (st_buf s)
                 else match db_can_drain_to_window (st_buf s) with Some n => n | None => 0 end) in *.
  assert (0 <= amount <= db_len (st_buf s) /\
          (st_is_finished s = false -> amount <= db_len (st_buf s) - Z.min (db_window (st_buf s)) (db_len (st_buf s))))
    as [Ha Hret].
  { unfold amount, db_can_drain_to_window. destruct (st_is_finished s); [split; [lia|discriminate]|].
    destruct (db_window (st_buf s) <? db_len (st_buf s)) eqn:E; cbv beta iota; (split; [lia|intros _; lia]). }
  pose proof (drain_to_sink_drains St sstep (st_buf s) amount split st W Ha) as T.
  destruct (db_drain_to_sink St sstep (st_buf s) amount split st) as [[[o b] k] st2].
  injection H as <- <- _ _. destruct T as (T & Lo).
  destruct (set_buf_drained d s b o Hs T) as (s' & E & Dr & Ls). exists s'. split; [exact E|]. split; [exact Dr|].
  intros Ef. specialize (Hret Ef). lia.
Qed.

Lemma drained_trans s s1 s2 o1 o2 : drained s s1 o1 -> drained s1 s2 o2 -> drained s s2 (o1 ++ o2).
Proof.
  intros ((A1&A2&A3&A4&A5&A6&A7&A8&A9&A10&A11&A12) & Ok1 & C1 & H1) ((B1&B2&B3&B4&B5&B6&B7&B8&B9&B10&B11&B12) & Ok2 & C2 & H2).
  split; [|split; [exact Ok2|split]].
  - unfold same_but_buf. repeat split; congruence.
  - rewrite <- app_assoc, C2. exact C1.
  - rewrite H2, H1, app_assoc. reflexivity.
Qed.

Lemma drained_refl s : st_ok s -> drained s s [].
Proof.
  intros Hs. unfold drained. split; [unfold same_but_buf; repeat split|]. split; [exact Hs|]. split; [reflexivity|].
  rewrite app_nil_r. reflexivity.
Qed.

Section DrainPrograms.
  Variable St : Type.
  Variable sstep : St -> Z -> sink_resp * St.

  Inductive dop := DCollect | DRead (n : Z) | DWrite (split : Z).

  Definition drain_step (d : fdec) (st : St) (o : dop) : list Z * fdec * St :=
    match o with
    | DCollect => let '(r, d') := fdec_collect d in (match r with Some l => l | None => [] end, d', st)
    | DRead n => let '(l, d') := fdec_read d (Z.max n 0) in (l, d', st)
    | DWrite split => let '(l, d', _, st') := fdec_collect_to_writer sstep d split st in (l, d', st')
    end.

  Fixpoint drain_run (d : fdec) (st : St) (ops : list dop) : list Z * fdec * St :=
    match ops with
    | [] => ([], d, st)
    | o :: t => let '(l1, d1, st1) := drain_step d st o in
                let '(l2, d2, st2) := drain_run d1 st1 t in (l1 ++ l2, d2, st2)
    end.

  Lemma drain_step_spec d s st o : fd_state d = Some s -> st_ok s -> 0 <= db_window (st_buf s) ->
    let '(l, d', st') := drain_step d st o in exists s', fd_state d' = Some s' /\ drained s s' l.
  Proof.
    intros Hd Hs Hw. destruct o as [|n|split]; cbn [drain_step].
    - destruct (fdec_collect d) as [[l|] d'] eqn:E.
      + destruct (collect_spec d s l d' Hd Hs E) as (s' & A & B & _). eauto.
      + unfold fdec_collect in E. rewrite Hd in E. destruct (st_is_finished s).
        * destruct (db_drain_all (st_buf s)). discriminate.
        * destruct (db_can_drain_to_window (st_buf s)); [destruct (db_drain_amount (st_buf s) z); discriminate|].
          injection E as <-. exists s. split; [exact Hd|apply drained_refl; exact Hs].
    - destruct (fdec_read d (Z.max n 0)) as [l d'] eqn:E.
      destruct (read_spec d s (Z.max n 0) l d' Hd Hs ltac:(lia) E) as (s' & A & B & _). eauto.
    - destruct (fdec_collect_to_writer sstep d split st) as [[[l d'] ok] st'] eqn:E.
      destruct (collect_to_writer_spec St sstep d s split st l d' ok st' Hd Hs Hw E) as (s' & A & B & _). eauto.
  Qed.

  Theorem drain_run_spec ops : forall d s st, fd_state d = Some s -> st_ok s -> 0 <= db_window (st_buf s) ->
    let '(l, d', st') := drain_run d st ops in exists s', fd_state d' = Some s' /\ drained s s' l.
  Proof.
    induction ops as [|o t IH]; intros d s st Hd Hs Hw; cbn [drain_run].
    - exists s. split; [exact Hd|apply drained_refl; exact Hs].
    - pose proof (drain_step_spec d s st o Hd Hs Hw) as S1.
      destruct (drain_step d st o) as [[l1 d1] st1]. destruct S1 as (s1 & Hd1 & D1).
      assert (0 <= db_window (st_buf s1)) as Hw1
        by (destruct D1 as ((_&_&_&_&_&_&_&_&_&_&W1&_) & _); rewrite W1; exact Hw).
      pose proof (IH d1 s1 st1 Hd1 (proj1 (proj2 D1)) Hw1) as S2.
      destruct (drain_run d1 st1 t) as [[l2 d2] st2]. destruct S2 as (s2 & Hd2 & D2).
      exists s2. split; [exact Hd2|exact (drained_trans _ _ _ _ _ D1 D2)].
  Qed.
End DrainPrograms.
