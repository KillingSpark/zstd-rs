(** C02 / C16 / C17: one block of the Fastest level with raw literals, end to end: match finder -> literal buffer and
    triples -> block body -> decoder.  Raw literals are one of the encodings the decoder reads back ([raw_lit_ok]), so
    this is [valid_parse_block] for them. *)
Require Import Zrs.lib.RsPrelude Zrs.gen.Generated Zrs.model.FseDec Zrs.model.BlockDec Zrs.model.Matcher.
Require Import Zrs.model.SeqSection Zrs.model.BlockEnc.
Require Import Zrs.proofs.C06_Drain Zrs.proofs.C17_Matcher Zrs.proofs.C17_Shape Zrs.proofs.C02_Glue Zrs.proofs.C02_FastGen Zrs.proofs.C02_Concrete.
Open Scope Z_scope.

Lemma block_raw_lits_parts lits dl do dm seqs body : block_raw_lits lits dl do dm seqs = ROk body ->
  exists sp, seq_part dl do dm seqs = ROk sp /\ body = raw_lit_header (zlen lits) ++ lits ++ sp.
Proof.
  unfold block_raw_lits, seq_part. destruct seqs as [|q qs]; [intros [= <-]; eexists; split; reflexivity|].
  destruct (encode_seqnum _ _) as [[u sn]|e|e]; cbn [rbind]; [|discriminate..].
  destruct (section_bytes _ _ _ _) as [sec|e|e]; cbn [rbind]; [|discriminate..]. intros [= <-]. eexists; split; reflexivity.
Qed.

Theorem fastest_raw_literal_block ts tail H data dl do dm body sc pre :
  Forall is_triple ts -> (tail = [] \/ exists l, tail = [MLit l]) -> Forall long_enough (ts ++ tail) ->
  apply_seqs H (ts ++ tail) = Some (H ++ data) -> Z.of_nat (length data) <= MAX_BLOCK_SIZE ->
  block_raw_lits (mseqs_lits (ts ++ tail)) dl do dm (mseqs_seqs (ts ++ tail)) = ROk body ->
  (mseqs_seqs (ts ++ tail) <> [] -> section_hyps_b dl do dm (mseqs_seqs (ts ++ tail)) = true) ->
  t_max_symbol (fs_ll (sc_fse sc)) = MAX_LITERAL_LENGTH_CODE -> t_max_symbol (fs_of (sc_fse sc)) = MAX_OFFSET_CODE ->
  t_max_symbol (fs_ml (sc_fse sc)) = MAX_MATCH_LENGTH_CODE ->
  db_wf (sc_buf sc) -> db_rev (sc_buf sc) = rev H ++ pre -> hist3 (sc_hist sc) ->
  exists sc',
    decompress_block (zlen body) sc body = ROk sc' /\
    db_wf (sc_buf sc') /\ db_rev (sc_buf sc') = rev (H ++ data) ++ pre /\ hist3 (sc_hist sc') /\
    sc_huf sc' = sc_huf sc /\ db_dict (sc_buf sc') = db_dict (sc_buf sc) /\ db_window (sc_buf sc') = db_window (sc_buf sc) /\
    db_hashed_rev (sc_buf sc') = db_hashed_rev (sc_buf sc) /\
    t_max_symbol (fs_ll (sc_fse sc')) = MAX_LITERAL_LENGTH_CODE /\ t_max_symbol (fs_of (sc_fse sc')) = MAX_OFFSET_CODE /\
    t_max_symbol (fs_ml (sc_fse sc')) = MAX_MATCH_LENGTH_CODE.
Proof.
  intros Ht Htail Hlong Ha Hd Hb Hh M1 M2 M3 W R H3.
  destruct (block_raw_lits_parts _ _ _ _ _ _ Hb) as (sp & Hsp & ->).
  pose proof (apply_seqs_length _ _ _ Ha) as Ltot. rewrite app_length in Ltot. pose proof (mseqs_lits_length (ts ++ tail)) as Llit.
  destruct (raw_lit_ok (sc_huf sc) (mseqs_lits (ts ++ tail))) as (ty & regen & comp & streams & L1 & L2 & L3 & L4); [unfold zlen; lia|].
  exact (valid_parse_block _ _ ty regen comp streams sc (sc_huf sc) _ L1 L2 L3 L4 ts tail H data dl do dm sp pre eq_refl
           Ht Htail Hlong Ha Hd Hsp Hh M1 M2 M3 W R H3).
Qed.

(** one block of the Fastest level, end to end: the built-in match finder's step on [data], the block encoder with raw
    literals, the decoder -- the decoder's buffer grows by exactly [data], and still ends with what the match finder
    retains (so the next block's matches are again within the decoder's history) *)
Theorem fastest_step_raw_literals d data d' seqs dl do dm body sc pre :
  DInv d -> (length data <= max_window d)%nat -> Z.of_nat (length data) <= MAX_BLOCK_SIZE ->
  mstep d (OpBlock data false) = ROk (d', Some seqs) ->
  block_raw_lits (mseqs_lits seqs) dl do dm (mseqs_seqs seqs) = ROk body ->
  (mseqs_seqs seqs <> [] -> section_hyps_b dl do dm (mseqs_seqs seqs) = true) ->
  t_max_symbol (fs_ll (sc_fse sc)) = MAX_LITERAL_LENGTH_CODE -> t_max_symbol (fs_of (sc_fse sc)) = MAX_OFFSET_CODE ->
  t_max_symbol (fs_ml (sc_fse sc)) = MAX_MATCH_LENGTH_CODE ->
  db_wf (sc_buf sc) -> db_rev (sc_buf sc) = rev (retained d) ++ pre -> hist3 (sc_hist sc) ->
  exists sc' pre',
    decompress_block (zlen body) sc body = ROk sc' /\
    db_rev (sc_buf sc') = rev data ++ db_rev (sc_buf sc) /\
    db_wf (sc_buf sc') /\ db_rev (sc_buf sc') = rev (retained d') ++ pre' /\ hist3 (sc_hist sc') /\
    sc_huf sc' = sc_huf sc /\ db_dict (sc_buf sc') = db_dict (sc_buf sc) /\ db_window (sc_buf sc') = db_window (sc_buf sc) /\
    t_max_symbol (fs_ll (sc_fse sc')) = MAX_LITERAL_LENGTH_CODE /\ t_max_symbol (fs_of (sc_fse sc')) = MAX_OFFSET_CODE /\
    t_max_symbol (fs_ml (sc_fse sc')) = MAX_MATCH_LENGTH_CODE.
Proof.
  intros HI Hfit Hd Hstep Hb Hh M1 M2 M3 W R H3.
  destruct (builtin_contract d data false HI Hfit) as (d2 & out & E & _ & _ & dr & H & R1 & R2 & seqs2 & Eo & A & B & Sh).
  unfold builtin_run in E. rewrite Hstep in E. injection E as <- <-. injection Eo as <-. destruct Sh as (ts & tail & -> & Ht & Htail).
  assert (Hlong : Forall long_enough (ts ++ tail)) by (eapply Forall_impl; [|exact B]; intros; eapply match_within_long; eassumption).
  rewrite R1, rev_app_distr, <- app_assoc in R.
  destruct (fastest_raw_literal_block ts tail H data dl do dm body sc (rev dr ++ pre) Ht Htail Hlong A Hd Hb Hh M1 M2 M3 W R H3)
    as (sc' & Hdec & W' & R' & H3' & Hu & Dd & Dw & _ & N1 & N2 & N3).
  exists sc', (rev dr ++ pre). rewrite R2. split; [exact Hdec|].
  split; [rewrite R', R, rev_app_distr, <- app_assoc; reflexivity|]. repeat split; assumption.
Qed.
