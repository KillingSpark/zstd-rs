(** C01: a whole compressed block with ANY literals layout the literals decoder reads back and ANY combination of the four
    sequence-table modes decodes to the literals and sequences it was written from, which are then executed. *)
Require Import Zrs.lib.RsPrelude Zrs.gen.Generated Zrs.model.Headers Zrs.model.FseDec Zrs.model.HufDec Zrs.model.BlockDec.
Require Import Zrs.model.BitStream Zrs.model.SeqEnc.
Require Import Zrs.proofs.C12_SeqStream Zrs.proofs.C02_BlockGen Zrs.proofs.C02_Block Zrs.proofs.C12_SeqStreamR Zrs.proofs.C12_Modes.
Open Scope Z_scope.

Section GenModes.
  Variables (hdr payload : list Z) (ty regen : Z) (comp streams : option Z).
  Variable sc : scratch.
  Variables (ht' : huf_table) (lits : list Z).
  Hypothesis Hhdr : forall rest, lit_header_parse (hdr ++ rest) = ROk (zlen hdr, ty, regen, comp, streams).
  Hypothesis Hupper : match comp with Some x => x | None => if ty =? 1 then 1 else regen end = zlen payload.
  Hypothesis Hregen : regen = zlen lits /\ regen <= MAX_BLOCK_SIZE.
  Hypothesis Hlits : decode_literals {| ls_type := ty; ls_regen := regen; ls_comp := comp; ls_streams := streams |} (sc_huf sc) payload
                     = ROk (ht', lits, zlen payload).

  Variables (mll mof mml : tmode) (Dll Dof Dml : fse_table) (rll rof rml : option Z).
  Hypothesis Hll : mtable mll (fs_ll (sc_fse sc)) (fs_ll_rle (sc_fse sc)) LL_MAX_LOG MAX_LITERAL_LENGTH_CODE LL_DEFAULT_ACC_LOG LITERALS_LENGTH_DEFAULT_DISTRIBUTION Dll rll.
  Hypothesis Hof : mtable mof (fs_of (sc_fse sc)) (fs_of_rle (sc_fse sc)) OF_MAX_LOG MAX_OFFSET_CODE OF_DEFAULT_ACC_LOG OFFSET_DEFAULT_DISTRIBUTION Dof rof.
  Hypothesis Hml : mtable mml (fs_ml (sc_fse sc)) (fs_ml_rle (sc_fse sc)) ML_MAX_LOG MAX_MATCH_LENGTH_CODE ML_DEFAULT_ACC_LOG MATCH_LENGTH_DEFAULT_DISTRIBUTION Dml rml.
  Variables (sl sm so : list Z).
  Hypothesis Rll : tab_ready Dll rll sl.
  Hypothesis Rml : tab_ready Dml rml sm.
  Hypothesis Rof : tab_ready Dof rof so.

  Theorem block_decodes_modes qs : qs <> [] -> Forall cseq_ok qs -> Forall (q_in sl sm so) qs -> Z.of_nat (length qs) <= 98047 ->
    let stream := stream_bytes (enc_fields (enc_for Dll rll) (enc_for Dml rml) (enc_for Dof rof) qs) in
    let sp := spec_seqnum_bytes (Z.of_nat (length qs)) ++ modes_byte mll mof mml :: (mbytes mll ++ mbytes mof ++ mbytes mml ++ stream) in
    exists vals, Forall2 (fun q v => cseq_value q = Some v) qs vals /\
      decompress_block (zlen (hdr ++ payload ++ sp)) sc (hdr ++ payload ++ sp) =
        let* (buf, hist) := execute_sequences vals lits (sc_buf sc) (sc_hist sc) in
        ROk {| sc_huf := ht'; sc_fse := scr Dll rll Dml rml Dof rof; sc_buf := buf; sc_hist := hist |}.
  Proof.
    intros Hne Hok Hin Hs stream sp.
    destruct (sequence_section_roundtrip_modes mll mof mml (sc_fse sc) Dll Dof Dml rll rof rml Hll Hof Hml sl sm so Rll Rml Rof qs Hne Hok Hin) as (vals & Hdec & Hv).
    exists vals. split; [exact Hv|].
    assert (Hn : 1 <= Z.of_nat (length qs) <= 98047) by (destruct qs; [congruence|cbn [length] in *; lia]).
    exact (block_with_sequences hdr payload ty regen comp streams sc ht' lits Hhdr Hupper Hregen Hlits _ _ _ _ _ Hn Hdec).
  Qed.
End GenModes.
