(** C01: sequence execution of the decoder model is the reference LZ77 semantics of RFC 8878 3.1.1.4/3.1.1.5:
    append the literal run, resolve the offset through the repeat-offset rules, copy [ml] bytes from [off] bytes back,
    byte by byte ([lz_copy]); at the end append the remaining literals.  Stated for the history "dictionary content
    followed by the output so far", which covers frames with and without a dictionary. *)
Require Import Zrs.lib.RsPrelude Zrs.gen.Generated Zrs.model.BlockDec.
Require Import Zrs.proofs.C06_Drain Zrs.proofs.C05_Block Zrs.proofs.C09_Lz.

(** the reference: [out_rev] is everything produced so far (dictionary content included), newest byte first *)
Fixpoint ref_exec (seqs : list sequence) (lits : list Z) (out_rev : list Z) (h : list Z) : option (list Z * list Z * list Z) :=
  match seqs with
  | [] => Some (out_rev, h, lits)
  | sq :: t =>
      let ll := Z.to_nat (sq_ll sq) in
      if (length lits <? ll)%nat then None else
      let out1 := rev_append (firstn ll lits) out_rev in
      let '(off, h') := do_offset_history (sq_of sq) (sq_ll sq) h in
      if (off <=? 0) || (Z.of_nat (length out1) <? off) then None else
      ref_exec t (skipn ll lits) (lz_copy (Z.to_nat (sq_ml sq)) (Z.to_nat off) out1) h'
  end.

Lemma flat_push_rev b f a : flat_of b f -> db_rev (db_push f a) = rev_append a (db_rev f).
Proof. intros _. reflexivity. Qed.

(** the hypothesis on the sequences: a match of length 0 would not look at its offset in [exec_loop], but would
    in [ref_exec] *)
Definition seq_pos (sq : sequence) : Prop := 0 <= sq_ll sq /\ 1 <= sq_ml sq /\ 1 <= sq_of sq.

Lemma seq_decoded_pos sq : seq_decoded sq -> seq_pos sq.
Proof. unfold seq_decoded, seq_pos. lia. Qed.

(** the loop is the reference on the history "output so far, then dictionary content", both newest byte first *)
Theorem exec_loop_is_reference seqs : forall lits buf hist ssum buf' hist' rest ssum',
  db_wf buf -> hist_ok hist -> Forall seq_pos seqs ->
  exec_loop seqs lits buf hist ssum = ROk (buf', hist', rest, ssum') ->
  ref_exec seqs lits (db_rev buf ++ rev (db_dict buf)) hist = Some (db_rev buf' ++ rev (db_dict buf), hist', rest).
Proof.
  induction seqs as [|sq t IH]; intros lits buf hist ssum buf' hist' rest ssum' W Hh Hs H.
  - injection H as <- <- <- _. reflexivity.
  - inversion Hs as [|? ? (Hll & Hml & Hof) Hs']; subst.
    apply exec_loop_cons_ok in H as (_ & Hl & Hoff & buf2 & Em & H).
    destruct (offhist_ok _ (sq_ll sq) _ Hof Hh) as [Ha Hh1].
    cbn [ref_exec]. apply Nat.ltb_ge in Hl. rewrite Hl.
    destruct (do_offset_history _ _ hist) as [off hist1]. cbn [fst snd] in *.
    rewrite <- push_rev_app. set (buf1 := db_push buf (firstn (Z.to_nat (sq_ll sq)) lits)) in *.
    assert (db_wf buf1) as W1 by apply push_inv, W. change (db_dict buf) with (db_dict buf1).
    unfold exec_match in Em. replace (0 <? sq_ml sq) with true in Em by lia.
    assert (1 <= off) as Ho by lia. assert (0 <= sq_ml sq) as Hml0 by lia.
    destruct (db_repeat_spec _ _ _ _ W1 Ho Hml0 Em) as (Hreach & <- & Hd).
    destruct (db_repeat_inv _ _ _ _ W1 Hml0 Ha Em) as (W2 & _ & _).
    pose proof (IH _ _ _ _ _ _ _ _ W2 Hh1 Hs' H) as R. rewrite Hd in R.
    unfold db_wf, zlen in W1, Hreach. rewrite app_length, rev_length.
    replace ((off <=? 0) || _) with false by lia. exact R.
Qed.

(** the whole sequence section of a block, with a dictionary or not: the buffer afterwards, seen together with the
    dictionary content, is the reference execution on (output so far ++ dictionary content) followed by the
    remaining literals *)
Theorem execute_sequences_is_reference seqs lits buf hist buf' hist' :
  db_wf buf -> hist_ok hist -> Forall seq_pos seqs ->
  execute_sequences seqs lits buf hist = ROk (buf', hist') ->
  exists out rest, ref_exec seqs lits (db_rev buf ++ rev (db_dict buf)) hist = Some (out, hist', rest) /\
                   db_rev buf' ++ rev (db_dict buf) = rev_append rest out.
Proof.
  intros W Hh Hs H. apply execute_sequences_ok in H as (buf1 & rest & ssum & E & -> & _).
  exists (db_rev buf1 ++ rev (db_dict buf)), rest. split; [eapply exec_loop_is_reference; eassumption|].
  apply push_rev_app.
Qed.

(** every sequence the decoder model reads from a bit stream has a match length of at least 3, a non-negative literal
    length and a positive offset value: the hypothesis of the theorems above is met by construction *)
Theorem decode_sequences_pos n modes src s s' seqs :
  decode_sequences n modes src s = ROk (s', seqs) -> Forall seq_pos seqs.
Proof.
  intros H. exact (Forall_impl _ seq_decoded_pos (decode_sequences_decoded _ _ _ _ _ _ H)).
Qed.
