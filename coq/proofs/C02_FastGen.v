(** C02 / C16 / C17: one block of the Fastest level, end to end, for ANY literals-section encoding the decoder reads
    back (raw, Huffman with description, treeless): match finder report -> literal buffer and triples -> block body ->
    decoder appends exactly the block's data. *)
Require Import Zrs.lib.RsPrelude Zrs.proofs.ModelFacts Zrs.gen.Generated Zrs.model.Headers Zrs.model.FseDec Zrs.model.HufDec Zrs.model.BlockDec Zrs.model.Matcher.
Require Import Zrs.model.SeqEnc Zrs.model.SeqSection Zrs.model.BlockEnc.
Require Import Zrs.proofs.C06_Drain Zrs.proofs.C17_Matcher Zrs.proofs.C17_Shape Zrs.proofs.C02_Glue Zrs.proofs.C02_BlockGen.
Open Scope Z_scope.

Lemma triples_nil ts : Forall is_triple ts -> mseqs_seqs ts = [] -> ts = [].
Proof. intros Ht E. destruct Ht as [|[l|l off ml] t Hs _]; [reflexivity|contradiction|discriminate E]. Qed.

Lemma build_table_max_symbol ms d D : build_table ms d = ROk D -> t_max_symbol D = ms.
Proof. apply fse_build_from_probabilities_max. Qed.

Lemma hyps_tables dl do dm seqs : section_hyps_b dl do dm seqs = true ->
  exists Dll Dml Dof, build_table MAX_LITERAL_LENGTH_CODE dl = ROk Dll /\ build_table MAX_MATCH_LENGTH_CODE dm = ROk Dml /\
                      build_table MAX_OFFSET_CODE do = ROk Dof.
Proof.
  unfold section_hyps_b. destruct (map_res to_cseq seqs); [|discriminate..].
  destruct (build_table _ dl) as [Dll|e|e]; [|discriminate..]. destruct (build_table _ do) as [Dof|e|e]; [|discriminate..].
  destruct (build_table _ dm) as [Dml|e|e]; [|discriminate..]. exists Dll, Dml, Dof. repeat split.
Qed.

Section AnyLiterals.
  Variables (hdr payload : list Z) (ty regen : Z) (comp streams : option Z).
  Variable sc : scratch.
  Variables (ht' : huf_table) (lits : list Z).
  Hypothesis Hhdr : forall rest, lit_header_parse (hdr ++ rest) = ROk (zlen hdr, ty, regen, comp, streams).
  Hypothesis Hupper : match comp with Some x => x | None => if ty =? 1 then 1 else regen end = zlen payload.
  Hypothesis Hregen : regen = zlen lits /\ regen <= MAX_BLOCK_SIZE.
  Hypothesis Hlits : decode_literals {| ls_type := ty; ls_regen := regen; ls_comp := comp; ls_streams := streams |} (sc_huf sc) payload
                     = ROk (ht', lits, zlen payload).

  Theorem valid_parse_block ts tail H data dl do dm sp pre :
    lits = mseqs_lits (ts ++ tail) ->
    Forall is_triple ts -> (tail = [] \/ exists l, tail = [MLit l]) -> Forall long_enough (ts ++ tail) ->
    apply_seqs H (ts ++ tail) = Some (H ++ data) -> Z.of_nat (length data) <= MAX_BLOCK_SIZE ->
    seq_part dl do dm (mseqs_seqs (ts ++ tail)) = ROk sp ->
    (mseqs_seqs (ts ++ tail) <> [] -> section_hyps_b dl do dm (mseqs_seqs (ts ++ tail)) = true) ->
    t_max_symbol (fs_ll (sc_fse sc)) = MAX_LITERAL_LENGTH_CODE -> t_max_symbol (fs_of (sc_fse sc)) = MAX_OFFSET_CODE ->
    t_max_symbol (fs_ml (sc_fse sc)) = MAX_MATCH_LENGTH_CODE ->
    db_wf (sc_buf sc) -> db_rev (sc_buf sc) = rev H ++ pre -> hist3 (sc_hist sc) ->
    exists sc',
      decompress_block (zlen (hdr ++ payload ++ sp)) sc (hdr ++ payload ++ sp) = ROk sc' /\
      db_wf (sc_buf sc') /\ db_rev (sc_buf sc') = rev (H ++ data) ++ pre /\ hist3 (sc_hist sc') /\
      sc_huf sc' = ht' /\ db_dict (sc_buf sc') = db_dict (sc_buf sc) /\ db_window (sc_buf sc') = db_window (sc_buf sc) /\
      db_hashed_rev (sc_buf sc') = db_hashed_rev (sc_buf sc) /\
      t_max_symbol (fs_ll (sc_fse sc')) = MAX_LITERAL_LENGTH_CODE /\ t_max_symbol (fs_of (sc_fse sc')) = MAX_OFFSET_CODE /\
      t_max_symbol (fs_ml (sc_fse sc')) = MAX_MATCH_LENGTH_CODE.
  Proof.
    intros El Ht Htail Hlong Ha Hd Hsp Hh M1 M2 M3 W R H3.
    pose proof (apply_seqs_length _ _ _ Ha) as Ltot. rewrite app_length in Ltot.
    pose proof (mseqs_seqs_count _ Hlong) as Lseq.
    assert (Hn : Z.of_nat (length (mseqs_seqs (ts ++ tail))) <= 98047) by (change MAX_BLOCK_SIZE with 131072 in Hd; lia).
    pose proof (block_decodes hdr payload ty regen comp streams sc ht' lits Hhdr Hupper Hregen Hlits dl do dm _ sp Hsp Hn Hh M1 M2 M3) as Hdec.
    destruct (mseqs_seqs (ts ++ tail)) as [|q qs] eqn:Es.
    - (* no match in the block: the literals are the block *)
      rewrite mseqs_seqs_app in Es. apply app_eq_nil in Es as [Es _]. apply (triples_nil ts Ht) in Es. subst ts.
      destruct (tail_lits tail H Htail) as (_ & Et). cbn [app] in *. rewrite Et in Ha. injection Ha as Ha.
      apply app_inv_head in Ha. rewrite <- Ha, <- El.
      destruct (push_buf_is (sc_buf sc) (sc_buf sc) H pre lits) as (W' & R' & Same); [repeat split; assumption|].
      eexists. split; [exact Hdec|]. cbn [sc_buf sc_hist sc_huf sc_fse]. repeat split; try assumption; apply Same.
    - destruct (matcher_output_executes ts tail H data (sc_buf sc) (sc_hist sc) pre Ht Htail Ha W R H3 Hd)
        as (buf' & hist' & Ex & W' & R' & H3' & Same).
      destruct (hyps_tables _ _ _ _ (Hh ltac:(discriminate))) as (Dll & Dml & Dof & B1 & B2 & B3).
      rewrite B1, B2, B3, El, <- Es, Ex in Hdec.
      eexists. split; [exact Hdec|]. cbn [sc_buf sc_hist sc_huf sc_fse C12_SeqStream.sc fs_ll fs_of fs_ml].
      rewrite (build_table_max_symbol _ _ _ B1), (build_table_max_symbol _ _ _ B2), (build_table_max_symbol _ _ _ B3).
      repeat split; try assumption; apply Same.
  Qed.
End AnyLiterals.
