(** C03 at frame level: initialising a frame decoder on any bytes and decoding blocks from any bytes never panics, for
    every decoder in the condition [dec_sound]: a new decoder has it, the dictionary parser returns dictionaries that
    keep it, and every operation that succeeds preserves it. *)
Require Import Zrs.lib.RsPrelude Zrs.lib.ResFacts Zrs.gen.Generated Zrs.model.Headers Zrs.model.FseDec Zrs.model.HufDec Zrs.model.BlockDec Zrs.model.FrameDec.
Require Import Zrs.proofs.C05_Block Zrs.proofs.C07_Reuse Zrs.proofs.C11_Reset Zrs.proofs.C14_Headers.
Require Import Zrs.proofs.C03_FseBuild Zrs.proofs.C03_HufBuild Zrs.proofs.C03_Literals Zrs.proofs.C03_Sequences Zrs.proofs.C03_BlockTotal.
Open Scope Z_scope.

Theorem decode_block_content_never_panics ty dsize csize sc src :
  scratch_sound sc -> bytes_ok src = true -> 0 <= ty <= 2 -> 0 <= dsize -> 0 <= csize ->
  post (decode_block_content ty dsize csize sc src)
       (fun '(sc', n, rest) => scratch_sound sc' /\ bytes_ok rest = true /\ (length rest <= length src)%nat).
Proof.
  intros S B Hty Hd Hc. unfold decode_block_content. pose proof S as ((W & Hh) & Gh & Gf).
  assert (RE : forall n a r, 0 <= n -> read_exact n src = Some (a, r) -> bytes_ok a = true /\ bytes_ok r = true /\ (length r <= length src)%nat /\ zlen a = n).
  { intros n a r Hn Hr. destruct (read_exact_spec n src a r Hn Hr) as [-> La]. destruct (bytes_ok_app _ _ B) as [Ba Br].
    rewrite app_length. unfold zlen. repeat split; try assumption; lia. }
  assert (RAW : forall data, scratch_sound {| sc_huf := sc_huf sc; sc_fse := sc_fse sc; sc_buf := db_append_raw (sc_buf sc) data; sc_hist := sc_hist sc |}).
  { intros data. split; [split; [apply (append_raw_inv (sc_buf sc) _ W)|exact Hh]|]. split; assumption. }
  destruct (Z.eqb_spec ty 1) as [T1|T1]; [|destruct (Z.eqb_spec ty 0) as [T0|T0]; [|replace (ty =? 2) with true by lia]].
  - destruct (read_exact 1 src) as [[b r]|] eqn:Er; [|exact I]. destruct (RE 1 b r ltac:(lia) Er) as (_ & Br & Lr & _).
    split; [apply RAW|split; assumption].
  - destruct (read_exact dsize src) as [[d r]|] eqn:Er; [|exact I]. destruct (RE dsize d r Hd Er) as (_ & Br & Lr & _).
    split; [apply RAW|split; assumption].
  - destruct (read_exact csize src) as [[raw r]|] eqn:Er; [|exact I]. destruct (RE csize raw r Hc Er) as (Ba & Br & Lr & La).
    eapply post_bind; [rewrite <- La; apply (decompress_block_never_panics sc raw S Ba)|]. intros sc' S'.
    split; [exact S'|split; assumption].
Qed.

Definition state_sound (s : fstate) : Prop := scratch_sound (fr_scratch s).

Lemma read_block_header_src_post src : bytes_ok src = true ->
  post (read_block_header_src src) (fun '(last, ty, dsize, csize, rest) =>
    0 <= dsize <= MAX_BLOCK_SIZE /\ 0 <= csize <= MAX_BLOCK_SIZE /\ 0 <= ty <= 2 /\
    Z.of_nat (length src) = 3 + Z.of_nat (length rest) /\ bytes_ok rest = true).
Proof.
  intros B. apply post_also with (P := fun _ => True);
    [|intros [[[[last ty] dsize] csize] rest] E _; exact (read_block_header_src_spec _ _ _ _ _ _ B E)].
  unfold read_block_header_src. destruct (read_exact 3 src) as [[hb r]|] eqn:Er; [|exact I].
  destruct (read_exact_spec 3 src hb r ltac:(lia) Er) as [-> _]. destruct (bytes_ok_app _ _ B) as [Bh _].
  unfold read_block_header. rewrite block_type_field by (apply bytes_ok_nth; exact Bh). cbn [rbind].
  destruct (_ =? 3); [exact I|]. unfold block_content_size. destruct (_ >? _); cbn [rbind]; exact I.
Qed.

(** the block loop ends within its fuel: every round consumes at least the three header bytes *)
Theorem decode_blocks_loop_never_panics fuel : forall s src strat lb bb,
  (length src < fuel)%nat -> state_sound s -> bytes_ok src = true ->
  post (decode_blocks_loop fuel s src strat lb bb)
       (fun '(s', rest) => state_sound s' /\ bytes_ok rest = true /\ (length rest + 3 <= length src)%nat).
Proof.
  induction fuel as [|f IH]; intros s src strat lb bb Hf S B; [lia|]. cbn [decode_blocks_loop].
  eapply post_bind; [apply read_block_header_src_post; exact B|].
  intros [[[[last ty] dsize] csize] src1] (Hd & Hc & Hty & Hlen & B1). cbn [fr_scratch set_scratch].
  eapply post_bind; [apply (decode_block_content_never_panics ty dsize csize (fr_scratch s) src1 S B1 Hty); lia|].
  intros [[sc n] src2] (S' & B2 & L2). cbv beta iota zeta.
  destruct last.
  - destruct (checksum_flag _); [|split; [exact S'|split; [exact B2|lia]]].
    destruct (read_exact 4 src2) as [[ck r]|] eqn:Er; [|exact I].
    destruct (read_exact_spec 4 src2 ck r ltac:(lia) Er) as [-> _]. destruct (bytes_ok_app _ _ B2) as [_ Br].
    rewrite app_length in L2. split; [exact S'|split; [exact Br|lia]].
  - match goal with |- context [if ?c then ROk _ else _] => destruct c end; [split; [exact S'|split; [exact B2|lia]]|].
    eapply post_mono; [apply IH; [lia|exact S'|exact B2]|]. intros [s' rest] (A & Br & L). split; [exact A|split; [exact Br|lia]].
Qed.

Definition dict_sound (dd : dictionary) : Prop := dict_ok dd /\ huf_good (d_huf dd) /\ fscratch_ok (d_fse dd).
Definition dec_sound (d : fdec) : Prop :=
  Forall dict_sound (fd_dicts d) /\ match fd_state d with Some s => state_sound s | None => True end.

Lemma dec_sound_with_state d s : dec_sound d -> state_sound s -> dec_sound (fdec_with_state d s).
Proof. intros (HD & _) S. split; [exact HD|exact S]. Qed.

Lemma fdec_decode_blocks_post d src strat : dec_sound d -> bytes_ok src = true ->
  post (fdec_decode_blocks d src strat) (fun '(d', rest, fin) =>
    dec_sound d' /\ bytes_ok rest = true /\ (length rest + 3 <= length src)%nat /\ is_some (fd_state d') = true).
Proof.
  intros Sd B. unfold fdec_decode_blocks. pose proof Sd as (_ & HS). destruct (fd_state d) as [s|]; [|exact I].
  eapply post_bind; [apply decode_blocks_loop_never_panics; [lia|exact HS|exact B]|]. intros [s' rest] (S' & Br & L).
  split; [exact (dec_sound_with_state d s' Sd S')|]. split; [exact Br|]. split; [exact L|reflexivity].
Qed.

Theorem fdec_decode_blocks_never_panics d src strat : dec_sound d -> bytes_ok src = true ->
  match fdec_decode_blocks d src strat with
  | ROk (d', rest, fin) => dec_sound d'
  | RErr _ => True
  | RPanic _ => False
  end.
Proof. intros Sd B. eapply post_mono; [apply fdec_decode_blocks_post; assumption|]. intros [[d' rest] fin] H. apply H. Qed.

Lemma fse_reset_tab M t : t_max_symbol t = M -> tab_ok M (fse_reset t) None.
Proof. intros H. split; [exact H|]. split; [left; reflexivity|exact I]. Qed.
Lemma fse_reinit_tab M t o rle : t_max_symbol t = M -> tab_ok M o rle -> tab_ok M (fse_reinit_from t o) rle.
Proof.
  intros H (Ho & Hr & Hl). split; [exact H|]. split; [|exact Hl].
  destruct Hr as [E|(A & B & C)]; [left; exact E|right]. unfold fse_range, fse_reinit_from. cbn [t_acc_log t_decode t_max_symbol].
  split; [exact A|]. split; [exact B|]. intros e He. specialize (C e He). lia.
Qed.

Lemma huf_reset_good t : huf_good t -> huf_good (huf_reset t).
Proof. intros (Hm & _). split; [exact Hm|left; reflexivity]. Qed.
Lemma huf_reinit_good t o : huf_good t -> huf_good o -> huf_good (huf_reinit_from t o).
Proof.
  intros (Hm & _) (_ & Ho). split; [exact Hm|exact Ho].
Qed.

Lemma fscratch_reset_ok s : fscratch_ok s -> fscratch_ok (fse_scratch_reset s).
Proof. intros ((A & _) & (B & _) & (C & _)). split; [|split]; apply fse_reset_tab; assumption. Qed.
Lemma fscratch_reinit_ok s o : fscratch_ok s -> fscratch_ok o -> fscratch_ok (fse_scratch_reinit_from s o).
Proof.
  intros ((A & _) & (B & _) & (C & _)) (X & Y & Z). split; [|split]; apply fse_reinit_tab; assumption.
Qed.

Lemma scratch_new_sound w : scratch_sound (scratch_new w).
Proof. split; [apply scratch_new_ok|]. split; [apply huf_new_good|apply fse_scratch_new_ok]. Qed.
Lemma scratch_reset_sound sc w : scratch_sound sc -> scratch_sound (scratch_reset sc w).
Proof. intros (_ & H & F). split; [apply scratch_reset_ok|]. split; [apply huf_reset_good; exact H|apply fscratch_reset_ok; exact F]. Qed.
Lemma found_dict_sound sc id dicts dd : scratch_sound sc -> Forall dict_sound dicts ->
  find (fun x => d_id x =? id) dicts = Some dd -> scratch_sound (scratch_init_from_dict sc dd).
Proof.
  intros (S & H & F) HD Hf. rewrite Forall_forall in HD. destruct (HD dd (proj1 (find_some _ _ Hf))) as (D & DH & DF).
  split; [apply init_from_dict_ok; assumption|]. split; [apply huf_reinit_good; assumption|apply fscratch_reinit_ok; assumption].
Qed.

Theorem fdec_reset_never_panics d src : dec_sound d ->
  match fdec_reset d src with
  | ROk (d', rest, evs) => dec_sound d'
  | RErr _ => True
  | RPanic _ => False
  end.
Proof.
  intros (HD & HS). rewrite fdec_reset_eq. unfold frame_front. pose proof (read_frame_header_reads src) as NP.
  destruct (read_frame_header src) as [h n|m len|e|e]; [|exact I|exact I|destruct NP].
  assert (NW : no_panic (fh_window_size h)) by (unfold fh_window_size, window_size; cbv zeta; repeat apply post_if; exact I).
  destruct (fh_window_size h) as [w|e|e]; cbn [rbind]; [|exact I|contradiction].
  unfold check_window_size. destruct (w >? fd_max_window d); cbn [rbind]; [exact I|].
  assert (SS : scratch_sound (reset_scratch d w)).
  { unfold reset_scratch. destruct (fd_state d) as [s|]; [apply scratch_reset_sound; exact HS|apply scratch_new_sound]. }
  unfold load_dict. destruct (fh_dict_id h) as [id|]; [destruct (find _ (fd_dicts d)) as [dd|] eqn:Ef; [|exact I]|];
    (split; [exact HD|]).
  - exact (found_dict_sound _ id _ dd SS HD Ef).
  - exact SS.
Qed.

Theorem fdec_force_dict_sound d id : dec_sound d ->
  match fdec_force_dict d id with ROk d' => dec_sound d' | RErr _ => True | RPanic _ => False end.
Proof.
  intros (HD & HS). unfold fdec_force_dict. destruct (fd_state d) as [s|]; [|exact I].
  destruct (find (fun dd => d_id dd =? id) (fd_dicts d)) as [dd|] eqn:Ef; [|exact I].
  split; [exact HD|exact (found_dict_sound _ id _ dd HS HD Ef)].
Qed.

Theorem fdec_add_dict_sound d dd : dec_sound d -> dict_sound dd -> dec_sound (fdec_add_dict d dd).
Proof.
  intros (HD & HS) Hdd. split; [|exact HS]. cbn [fd_dicts fdec_add_dict]. constructor; [exact Hdd|].
  rewrite Forall_forall in *. intros x Hx. apply filter_In in Hx as [Hx _]. apply HD. exact Hx.
Qed.

Lemma fdec_new_sound : dec_sound fdec_new.
Proof. split; [constructor|exact I]. Qed.

Theorem decode_dict_never_panics raw : bytes_ok raw = true ->
  match decode_dict raw with ROk dd => dict_sound dd | RErr _ => True | RPanic _ => False end.
Proof.
  intros B. unfold decode_dict. destruct (zlen raw <? 8); [exact I|]. destruct (negb _); [exact I|]. cbv zeta.
  eapply post_bind; [apply (huf_build_decoder_good huf_new _ eq_refl), bytes_nonneg, bytes_ok_skipn, B|]. intros [huf hsz] (_ & Gh & _).
  destruct (_ <? hsz); [exact I|].
  eapply post_bind; [apply (fse_build_decoder_good (fse_new MAX_OFFSET_CODE) _ OF_MAX_LOG); cbv; discriminate|]. intros [of osz] (_ & R1 & M1 & _).
  destruct (_ <? osz); [exact I|].
  eapply post_bind; [apply (fse_build_decoder_good (fse_new MAX_MATCH_LENGTH_CODE) _ ML_MAX_LOG); cbv; discriminate|]. intros [ml msz] (_ & R2 & M2 & _).
  destruct (_ <? msz); [exact I|].
  eapply post_bind; [apply (fse_build_decoder_good (fse_new MAX_LITERAL_LENGTH_CODE) _ LL_MAX_LOG); cbv; discriminate|]. intros [ll lsz] (_ & R3 & M3 & _).
  destruct (_ <? lsz); [exact I|]. destruct (_ <? 12); [exact I|].
  split.
  - unfold dict_ok, hist_ok. cbn [d_hist]. do 3 eexists. split; [reflexivity|].
    split; [|split]; apply le_val_nonneg; repeat (first [apply bytes_ok_firstn | apply bytes_ok_skipn]); exact B.
  - split; [exact Gh|]. unfold fscratch_ok, tab_ok. cbn [d_fse fs_ll fs_ll_rle fs_of fs_of_rle fs_ml fs_ml_rle].
    repeat split; try exact I; try (right; assumption); assumption.
Qed.
