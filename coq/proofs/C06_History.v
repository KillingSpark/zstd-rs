(** C06: decoding does not depend on how much history older than the reach of the offsets the buffer still holds.
    Draining removes the oldest bytes of the buffer; the theorems below say that whatever a block decodes to with
    LESS history it decodes to with MORE history (the same new bytes, the same tables and offsets): so for a frame
    whose offsets stay within what is retained (every valid frame: offsets are at most the window, and the window is
    always retained), the decoded bytes are the same whether and when the caller drains.  (Frames without dictionary:
    with a dictionary the reach of the dictionary itself depends on the amount of output, see C09.) *)
Require Import Zrs.lib.RsPrelude Zrs.lib.ResFacts Zrs.gen.Generated Zrs.model.Headers Zrs.model.BlockDec Zrs.model.FrameDec.
Require Import Zrs.proofs.C06_Drain Zrs.proofs.C05_Block Zrs.proofs.C09_Lz.

(** the same buffer with [old] more bytes of history behind it *)
Definition extend (b : dbuf) (old : list Z) : dbuf :=
  {| db_rev := db_rev b ++ old; db_len := db_len b + zlen old; db_dict := db_dict b; db_window := db_window b;
     db_total_out := db_total_out b; db_hashed_rev := db_hashed_rev b |}.

Lemma extend_wf b old : db_wf b -> db_wf (extend b old).
Proof. unfold db_wf, extend, zlen. cbn. rewrite app_length. lia. Qed.

Lemma extend_append_raw b old a : extend (db_append_raw b a) old = db_append_raw (extend b old) a.
Proof.
  unfold extend, db_append_raw. cbn. f_equal; [|lia]. rewrite !rev_append_rev, app_assoc. reflexivity.
Qed.

Lemma extend_push b old a : extend (db_push b a) old = db_push (extend b old) a.
Proof. unfold db_push. rewrite <- extend_append_raw. reflexivity. Qed.

(** [f] is the buffer [b] (which has no dictionary) with [old] behind it *)
Definition extends (old : list Z) (b f : dbuf) : Prop := db_wf b /\ db_dict b = [] /\ f = extend b old.

Lemma extends_push old b f a : extends old b f -> extends old (db_push b a) (db_push f a).
Proof. intros (W & D & ->). split; [apply push_inv, W|]. split; [exact D|]. symmetry. apply extend_push. Qed.

(** a match copy that succeeds with less history stays within it, so the history behind does not matter *)
Lemma extends_repeat old b f off ml b' : extends old b f -> 1 <= off -> 0 <= ml ->
  db_repeat b off ml = ROk b' -> exists f', db_repeat f off ml = ROk f' /\ extends old b' f'.
Proof.
  intros (W & D & ->) Ho Hm H. exists (extend b' old).
  assert (0 <= off) as Ho0 by lia. destruct (db_repeat_inv _ _ _ _ W Hm Ho0 H) as (W' & _ & (M & _)).
  split; [|split; [exact W'|split; [rewrite M; exact D|reflexivity]]].
  unfold db_repeat in *. cbn [extend db_len db_dict db_rev db_window db_total_out]. unfold db_wf in W.
  destruct (Z.ltb_spec (db_len b) off) as [Hfar|Hnear].
  - (* without a dictionary an offset beyond the buffer is an error *)
    rewrite D in H. cbn [length Z.of_nat] in H. destruct (db_total_out b <=? db_window b); [|discriminate].
    destruct (Z.ltb_spec 0 (off - db_len b)) as [_|]; [discriminate|lia].
  - destruct ((off =? 0) && (0 <? ml)) eqn:E0; [discriminate|]. injection H as <-.
    destruct (Z.ltb_spec (db_len b + zlen old) off) as [|_]; [unfold zlen in *; lia|].
    f_equal. unfold extend, db_add_total, db_set_rev. cbn. f_equal; [|lia].
    rewrite !lz_copy_fast_eq by (rewrite ?app_length; lia). apply lz_copy_app; lia.
Qed.

Theorem exec_loop_more_history seqs : forall lits buf hist ssum buf' hist' rest ssum' old,
  db_wf buf -> db_dict buf = [] -> hist_ok hist -> Forall seq_ok seqs ->
  exec_loop seqs lits buf hist ssum = ROk (buf', hist', rest, ssum') ->
  exec_loop seqs lits (extend buf old) hist ssum = ROk (extend buf' old, hist', rest, ssum').
Proof.
  intros lits buf hist ssum buf' hist' rest ssum' old W D Hh Hs H.
  destruct (exec_loop_lockstep _ (extends_push old) (extends_repeat old) _ _ _ _ _ _ _ _ _ _ Hh Hs
              (conj W (conj D eq_refl)) H) as (f' & E & _ & _ & ->).
  exact E.
Qed.

Theorem execute_sequences_more_history seqs lits buf hist buf' hist' old :
  db_wf buf -> db_dict buf = [] -> hist_ok hist -> Forall seq_ok seqs ->
  execute_sequences seqs lits buf hist = ROk (buf', hist') ->
  execute_sequences seqs lits (extend buf old) hist = ROk (extend buf' old, hist').
Proof.
  intros W D Hh Hs H. apply execute_sequences_ok in H as (buf1 & rest & ssum & E & -> & Hc & Hm).
  apply execute_sequences_ok. exists (extend buf1 old), rest, ssum.
  split; [apply exec_loop_more_history; assumption|]. split; [apply extend_push|]. split; [exact Hc|].
  rewrite Hm. cbn [extend db_len]. lia.
Qed.

Definition sc_extend (sc : scratch) (old : list Z) : scratch :=
  {| sc_huf := sc_huf sc; sc_fse := sc_fse sc; sc_buf := extend (sc_buf sc) old; sc_hist := sc_hist sc |}.

Theorem decompress_block_more_history cs sc raw sc' old :
  scratch_ok sc -> db_dict (sc_buf sc) = [] ->
  decompress_block cs sc raw = ROk sc' -> decompress_block cs (sc_extend sc old) raw = ROk (sc_extend sc' old).
Proof.
  intros [W Hh] D H. destruct (decompress_block_ok _ _ _ _ H) as (lits & oseqs & _ & Hs & K).
  destruct sc as [hu fs b h]. unfold sc_extend. cbn [sc_huf sc_fse sc_buf sc_hist] in *. rewrite K in H |- *.
  bind_inv H. destruct a as [b' h']. injection H as <-. cbn [sc_huf sc_fse sc_buf sc_hist].
  destruct oseqs as [seqs|]; cbn [block_exec] in *.
  - rewrite (execute_sequences_more_history _ _ _ _ _ _ old W D Hh (Hs _ eq_refl) E). reflexivity.
  - injection E as <- <-. rewrite extend_push. reflexivity.
Qed.

Theorem decode_block_content_more_history ty d c sc src sc' n rest old :
  scratch_ok sc -> db_dict (sc_buf sc) = [] ->
  decode_block_content ty d c sc src = ROk (sc', n, rest) ->
  decode_block_content ty d c (sc_extend sc old) src = ROk (sc_extend sc' old, n, rest).
Proof.
  intros Hs D H. unfold decode_block_content in *.
  destruct (ty =? 1).
  { destruct (read_exact 1 src) as [[b r]|]; [|discriminate]. injection H as <- <- <-.
    unfold sc_extend. cbn. rewrite extend_append_raw. reflexivity. }
  destruct (ty =? 0).
  { destruct (read_exact d src) as [[b r]|]; [|discriminate]. injection H as <- <- <-.
    unfold sc_extend. cbn. rewrite extend_append_raw. reflexivity. }
  destruct (ty =? 2); [|discriminate].
  destruct (read_exact c src) as [[b r]|]; [|discriminate].
  destruct (decompress_block c sc b) as [x|e|e] eqn:E; cbn [rbind] in H; try discriminate.
  rewrite (decompress_block_more_history _ _ _ _ old Hs D E). cbn [rbind]. injection H as <- <- <-. reflexivity.
Qed.

Definition st_extend (s : fstate) (old : list Z) : fstate :=
  {| fr_header := fr_header s; fr_scratch := sc_extend (fr_scratch s) old; fr_finished := fr_finished s;
     fr_blocks := fr_blocks s; fr_bytes_read := fr_bytes_read s; fr_checksum := fr_checksum s; fr_using_dict := fr_using_dict s |}.

(** the block loop: a decoder that kept more history produces the same frame state, with the extra history still
    behind the buffer.  The byte strategy measures growth from [lb], which moves with the history; strategy All
    does not look at it *)
Theorem loop_more_history_any fuel : forall s src strat lb lb' bb s' rest old,
  st_ok s -> db_dict (sc_buf (fr_scratch s)) = [] -> bytes_ok src = true ->
  strat = SAll \/ lb' = lb + zlen old ->
  decode_blocks_loop fuel s src strat lb bb = ROk (s', rest) ->
  decode_blocks_loop fuel (st_extend s old) src strat lb' bb = ROk (st_extend s' old, rest).
Proof.
  induction fuel as [|f IH]; intros s src strat lb lb' bb s' rest old Hs D B Hlb H; [discriminate|].
  cbn [decode_blocks_loop] in *.
  destruct (read_block_header_src src) as [[[[[last ty] d] c] r1]|e|e] eqn:Eh; cbn [rbind] in *; try discriminate.
  destruct (read_block_header_src_spec _ _ _ _ _ _ B Eh) as (Hd & Hc & _ & _ & B1).
  cbn [set_scratch fr_scratch st_extend] in *.
  destruct (decode_block_content ty d c (fr_scratch s) r1) as [[[sc nb] r2]|e|e] eqn:Ec; cbn [rbind] in *; try discriminate.
  rewrite (decode_block_content_more_history _ _ _ _ _ _ _ _ old Hs D Ec). cbn [rbind].
  destruct (decode_block_content_inv _ _ _ _ _ _ _ _ Hs Hd (proj1 Hc) Ec) as (S1 & (M1 & _) & _ & _ & (c0 & -> & _)).
  destruct (bytes_ok_app _ _ B1) as [_ B2].
  destruct last.
  - unfold checksum_flag in *. cbn [set_scratch fr_header st_extend] in *.
    destruct (content_checksum_flag (fh_desc (fr_header s))).
    + destruct (read_exact 4 r2) as [[ck r3]|]; [|discriminate]. injection H as <- <-. reflexivity.
    + injection H as <- <-. reflexivity.
  - cbn [set_scratch fr_scratch fr_blocks sc_extend sc_buf extend db_len].
    replace (match strat with SAll => false | SUptoBlocks n => _ | SUptoBytes n => n <=? db_len (sc_buf sc) + zlen old - lb' end)
      with (match strat with SAll => false | SUptoBlocks n => n <=? fr_blocks s + 0 + 1 - bb
                           | SUptoBytes n => n <=? db_len (sc_buf sc) - lb end)
      by (destruct Hlb as [->| ->]; [reflexivity|]; destruct strat; try reflexivity; f_equal; lia).
    destruct (match strat with SAll => false | _ => _ end).
    + injection H as <- <-. reflexivity.
    + apply (IH (set_scratch (set_scratch s (fr_scratch s) 3 0) sc nb 1) r2 strat lb); [exact S1| |exact B2|exact Hlb|exact H].
      cbn. rewrite M1. exact D.
Qed.

Theorem loop_more_history fuel : forall s src lb lb' bb s' rest old,
  st_ok s -> db_dict (sc_buf (fr_scratch s)) = [] -> bytes_ok src = true ->
  decode_blocks_loop fuel s src SAll lb bb = ROk (s', rest) ->
  decode_blocks_loop fuel (st_extend s old) src SAll lb' bb = ROk (st_extend s' old, rest).
Proof. intros s src lb lb' bb s' rest old Hs D B. apply loop_more_history_any; auto. Qed.
