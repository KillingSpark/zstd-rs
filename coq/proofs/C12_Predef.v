(** C12: the hypotheses of the sequences-stream theorem are decidable, and they hold for the three predefined tables
    (all symbols of each alphabet): the round trip is unconditional for frames coded with the predefined tables. *)
Require Import Zrs.lib.RsPrelude Zrs.gen.Generated Zrs.model.BitIO Zrs.model.BitStream Zrs.model.FseDec Zrs.model.BlockDec Zrs.model.SeqEnc Zrs.model.SeqSection.
Require Import Zrs.proofs.C12_SeqStream Zrs.proofs.C12_SeqStreamR.
Open Scope Z_scope.

Lemma covers_b_sound D sym : covers_b D sym = true -> covers D sym.
Proof.
  unfold covers_b, covers. intros H. apply andb_prop in H. destruct H as [H1 H2]. split.
  - destruct (min_base (t_decode D) 0 sym None); [discriminate|discriminate H1].
  - intros idx Hidx. rewrite forallb_forall in H2. specialize (H2 (Z.to_nat idx)).
    rewrite Z2Nat.id in H2 by lia.
    assert (Hin : In (Z.to_nat idx) (seq 0 (Z.to_nat (t_len D)))) by (apply in_seq; lia).
    specialize (H2 Hin). destruct (find_entry _ _ _); [discriminate|discriminate H2].
Qed.

Lemma table_wf_b_sound D : table_wf_b D = true -> table_wf D.
Proof.
  unfold table_wf_b, table_wf. intros H. apply andb_prop in H. destruct H as [H H3]. apply andb_prop in H. destruct H as [H1 H2].
  split; [lia|]. split; [|lia]. rewrite Forall_forall. rewrite forallb_forall in H2. intros e He. specialize (H2 e He). lia.
Qed.

Definition predef (max_symbol acc_log : Z) (dist : list Z) : fse_table :=
  match fse_build_from_probabilities (fse_new max_symbol) acc_log dist with ROk t => t | _ => fse_new max_symbol end.
Definition D_ll := predef MAX_LITERAL_LENGTH_CODE LL_DEFAULT_ACC_LOG LITERALS_LENGTH_DEFAULT_DISTRIBUTION.
Definition D_ml := predef MAX_MATCH_LENGTH_CODE ML_DEFAULT_ACC_LOG MATCH_LENGTH_DEFAULT_DISTRIBUTION.
Definition D_of := predef MAX_OFFSET_CODE OF_DEFAULT_ACC_LOG OFFSET_DEFAULT_DISTRIBUTION.
Definition codes (n : nat) : list Z := map Z.of_nat (seq 0 n).

(** a predefined table is built, is well formed and covers the first [n] codes: decided by building it once *)
Lemma predef_ready ms al dist n :
  match fse_build_from_probabilities (fse_new ms) al dist with
  | ROk D => table_wf_b D && forallb (covers_b D) (codes n)
  | _ => false
  end = true ->
  fse_build_from_probabilities (fse_new ms) al dist = ROk (predef ms al dist) /\
  table_wf (predef ms al dist) /\ Forall (covers (predef ms al dist)) (codes n).
Proof.
  unfold predef. destruct (fse_build_from_probabilities (fse_new ms) al dist) as [D|e|e]; try discriminate.
  rewrite andb_true_iff, forallb_forall. intros (W & C). split; [reflexivity|]. split; [exact (table_wf_b_sound D W)|].
  apply Forall_forall. intros x Hx. apply covers_b_sound, C, Hx.
Qed.

Lemma ll_ready : fse_build_from_probabilities (fse_new MAX_LITERAL_LENGTH_CODE) LL_DEFAULT_ACC_LOG LITERALS_LENGTH_DEFAULT_DISTRIBUTION = ROk D_ll /\
  table_wf D_ll /\ Forall (covers D_ll) (codes 36).
Proof. exact (predef_ready MAX_LITERAL_LENGTH_CODE LL_DEFAULT_ACC_LOG LITERALS_LENGTH_DEFAULT_DISTRIBUTION 36 ltac:(vm_compute; reflexivity)). Qed.
Lemma ml_ready : fse_build_from_probabilities (fse_new MAX_MATCH_LENGTH_CODE) ML_DEFAULT_ACC_LOG MATCH_LENGTH_DEFAULT_DISTRIBUTION = ROk D_ml /\
  table_wf D_ml /\ Forall (covers D_ml) (codes 53).
Proof. exact (predef_ready MAX_MATCH_LENGTH_CODE ML_DEFAULT_ACC_LOG MATCH_LENGTH_DEFAULT_DISTRIBUTION 53 ltac:(vm_compute; reflexivity)). Qed.
Lemma of_ready : fse_build_from_probabilities (fse_new MAX_OFFSET_CODE) OF_DEFAULT_ACC_LOG OFFSET_DEFAULT_DISTRIBUTION = ROk D_of /\
  table_wf D_of /\ Forall (covers D_of) (codes 29).
Proof. exact (predef_ready MAX_OFFSET_CODE OF_DEFAULT_ACC_LOG OFFSET_DEFAULT_DISTRIBUTION 29 ltac:(vm_compute; reflexivity)). Qed.

(** sequences coded with the predefined tables: every list of sequences whose codes lie in the alphabets (literal
    length codes 0..35, match length codes 0..52, offset codes 0..28) round-trips, unconditionally *)
Theorem predefined_sequences_roundtrip qs :
  qs <> [] -> Forall cseq_ok qs -> Forall (q_in (codes 36) (codes 53) (codes 29)) qs ->
  let bytes := stream_bytes (enc_fields (enc_of_dec D_ll) (enc_of_dec D_ml) (enc_of_dec D_of) qs) in
  exists r0 ll r1 of r2 ml r3 vals rf,
    rbr_skip_padding (rbr_new bytes) = Some r0 /\
    fse_init_state D_ll r0 = ROk (ll, r1) /\ fse_init_state D_of r1 = ROk (of, r2) /\ fse_init_state D_ml r2 = ROk (ml, r3) /\
    seq_loop (length qs) (Z.of_nat (length qs)) (sc D_ll D_ml D_of) ll ml of r3 0 [] = ROk (rev vals, rf) /\
    Forall2 (fun q v => cseq_value q = Some v) qs vals /\
    rbr_bits_remaining rf = 0.
Proof.
  apply derived_encoder_roundtrip; [apply ll_ready|apply ml_ready|apply of_ready|apply ll_ready|apply ml_ready|apply of_ready].
Qed.

Example predefined_roundtrip_non_vacuous :
  let q := {| c_ll := 3; a_ll := 0; n_ll := 0%nat; c_ml := 2; a_ml := 0; n_ml := 0%nat; c_of := 5; a_of := 17 |} in
  stream_bytes (enc_fields (enc_of_dec D_ll) (enc_of_dec D_ml) (enc_of_dec D_of) [q; q]) <> [].
Proof. vm_compute. discriminate. Qed.
