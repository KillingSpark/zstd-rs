(** C02: what the frame compressor writes, read back by the decoder model.
    - a raw block and an RLE block decode to the block (for every decoder state);
    - the frame header the compressor writes initialises a new decoder;
    - hence, for EVERY input, EVERY fragmentation of the reads and every block size up to 128 KiB: if each emitted
      block, seen as an item of the frame theorem (C01_Frame), regenerates its input block, the emitted frame
      initialises a new decoder, decodes completely, leaves nothing behind, regenerates exactly the input, and the
      stored checksum is the one the compressor computed;
    - at level Uncompressed every block is stored raw, so this holds for every frame.  Level Fastest is
      C02_Fastest. *)
Require Import Zrs.lib.RsPrelude Zrs.lib.ResFacts Zrs.gen.Generated Zrs.model.Headers Zrs.model.FseDec Zrs.model.BlockDec
  Zrs.model.FrameDec Zrs.model.FrameEnc.
Require Import Zrs.proofs.C14_Headers Zrs.proofs.C15_Frame Zrs.proofs.C06_Drain Zrs.proofs.C01_Frame.
Open Scope Z_scope.

Definition sc_push_raw (sc : scratch) (d : list Z) : scratch :=
  {| sc_huf := sc_huf sc; sc_fse := sc_fse sc; sc_buf := db_append_raw (sc_buf sc) d; sc_hist := sc_hist sc |}.

Lemma raw_content sc d rest :
  decode_block_content 0 (Z.of_nat (length d)) (Z.of_nat (length d)) sc (d ++ rest) = ROk (sc_push_raw sc d, Z.of_nat (length d), rest).
Proof. unfold decode_block_content. cbn [Z.eqb]. rewrite read_exact_app. reflexivity. Qed.

Lemma all_same_repeat (l : list Z) : all_same l = true -> l = repeat_z (nth 0 l 0) (length l).
Proof.
  destruct l as [|x t]; [reflexivity|]. cbn [all_same nth length repeat_z]. intros H. f_equal.
  induction t as [|y t IH]; [reflexivity|]. cbn [forallb] in H. apply andb_prop in H. destruct H as [Hy Ht].
  apply Z.eqb_eq in Hy. subst y. cbn [length repeat_z]. f_equal. apply IH. exact Ht.
Qed.

Lemma rle_content sc (b : Z) n rest :
  decode_block_content 1 (Z.of_nat n) 1 sc ([b] ++ rest) = ROk (sc_push_raw sc (repeat_z b n), 1, rest).
Proof.
  unfold decode_block_content. cbn [Z.eqb]. change 1 with (Z.of_nat (length [b])) at 1. rewrite read_exact_app.
  unfold nth_z. change (Z.to_nat 0) with 0%nat. cbn [nth]. rewrite Nat2Z.id. reflexivity.
Qed.

Lemma item_run_raw sc d : item_run sc {| bi_ty := 0; bi_size := length d; bi_payload := d |} = ROk (sc_push_raw sc d).
Proof.
  unfold item_run, bi_dsize, bi_csize. cbn [bi_ty bi_size bi_payload Z.eqb orb].
  pose proof (raw_content sc d []) as H. rewrite app_nil_r in H. rewrite H. reflexivity.
Qed.
Lemma item_run_rle sc b n : item_run sc {| bi_ty := 1; bi_size := n; bi_payload := [b] |} = ROk (sc_push_raw sc (repeat_z b n)).
Proof.
  unfold item_run, bi_dsize, bi_csize. cbn [bi_ty bi_size bi_payload Z.eqb Pos.eqb orb].
  pose proof (rle_content sc b n []) as H. cbn [app] in H. rewrite H. reflexivity.
Qed.
Lemma item_run_compressed sc body :
  item_run sc {| bi_ty := 2; bi_size := length body; bi_payload := body |} = decompress_block (zlen body) sc body.
Proof.
  unfold item_run, bi_dsize, bi_csize. cbn [bi_ty bi_size bi_payload Z.eqb Pos.eqb orb]. unfold decode_block_content.
  cbn [Z.eqb Pos.eqb]. pose proof (read_exact_app body []) as H. rewrite app_nil_r in H. rewrite H. unfold zlen.
  destruct (decompress_block (Z.of_nat (length body)) sc body) as [sc'|e|e]; reflexivity.
Qed.

Definition with_scratch (s : fstate) (sc : scratch) (bytes blocks : Z) : fstate :=
  {| fr_header := fr_header s; fr_scratch := sc; fr_finished := fr_finished s; fr_blocks := fr_blocks s + blocks;
     fr_bytes_read := fr_bytes_read s + bytes; fr_checksum := fr_checksum s; fr_using_dict := fr_using_dict s |}.

Definition buf_content (s : fstate) : list Z := rev (db_rev (sc_buf (fr_scratch s))).

(** a new decoder accepts [frame], decodes it to the end with nothing left over, has regenerated [data], and has read
    the checksum [hash32] gives, if any *)
Definition frame_decodes_to (frame data : list Z) (hash32 : option (list Z -> list Z)) : Prop :=
  exists d1 rest evs s1 d2 s2,
    fdec_reset fdec_new frame = ROk (d1, rest, evs) /\ fd_state d1 = Some s1 /\
    fdec_decode_blocks d1 rest SAll = ROk (d2, [], true) /\ fd_state d2 = Some s2 /\
    buf_content s2 = data /\
    fr_checksum s2 = match hash32 with Some h => Some (le_val (h data)) | None => None end.

Lemma push_raw_content sc d : db_all (sc_buf (sc_push_raw sc d)) = db_all (sc_buf sc) ++ d.
Proof. unfold db_all, sc_push_raw, db_append_raw. cbn [sc_buf db_rev]. rewrite rev_append_rev, rev_app_distr, rev_involutive. reflexivity. Qed.

Lemma fh_read (ck : bool) (wd : Z) (rest : list Z) :
  read_frame_header (le_bytes 4 MAGIC_NUM ++ [(if ck then 4 else 0)] ++ [wd] ++ rest)
  = FhOk {| fh_desc := if ck then 4 else 0; fh_wd := wd; fh_dict_id := None; fh_fcs := 0 |} 6.
Proof. destruct ck; vm_compute; reflexivity. Qed.

Lemma window_descriptor_range wsize : 1 <= wsize <= 2 ^ 27 -> exists e, 1 <= e <= 17 /\ window_descriptor wsize = e * 8.
Proof.
  intros H. unfold window_descriptor, npot.
  destruct (Z.leb_spec wsize 1) as [H1|H1].
  - exists 1. split; [lia|]. reflexivity.
  - assert (L : 0 <= Z.log2_up wsize <= 27).
    { split; [apply Z.log2_up_nonneg|]. replace 27 with (Z.log2_up (2 ^ 27)) by (apply Z.log2_up_pow2; lia).
      apply Z.log2_up_le_mono. lia. }
    rewrite Z.log2_pow2 by lia.
    destruct (Z.ltb_spec 10 (Z.log2_up wsize)) as [Hl|Hl].
    + exists (Z.log2_up wsize - 10). split; [lia|]. apply Z.mod_small. lia.
    + exists 1. split; [lia|]. reflexivity.
Qed.

(** descriptor [e * 8] (mantissa 0) announces a window of 2^(10+e) bytes, within the decoder's default limit of 2^27 *)
Lemma window_of_descriptor e (ck : bool) : 1 <= e <= 17 ->
  exists w, window_size (e * 8) (if ck then 4 else 0) 0 = ROk w /\ check_window_size w DEFAULT_MAX_WINDOW_SIZE = ROk tt.
Proof.
  intros H. exists (2 ^ (10 + e)). split.
  - rewrite window_size_spec by lia. replace (single_segment_flag _) with false by (destruct ck; reflexivity).
    unfold spec_window. rewrite Z.div_mul, Z.mod_mul by lia. f_equal. lia.
  - unfold check_window_size. change DEFAULT_MAX_WINDOW_SIZE with (2 ^ 27).
    destruct (Z.gtb_spec (2 ^ (10 + e)) (2 ^ 27)) as [Hgt|_]; [|reflexivity].
    apply Z.pow_lt_mono_r_iff in Hgt; lia.
Qed.

Lemma frame_header_reset wsize (ck : bool) rest : 1 <= wsize <= 2 ^ 27 ->
  exists w d1 ev s, fdec_reset fdec_new (frame_header_bytes (Z.max wsize MAX_BLOCK_SIZE) ck ++ rest) = ROk (d1, rest, ev) /\
    fd_state d1 = Some s /\ fr_scratch s = scratch_new w /\ checksum_flag s = ck /\ fr_checksum s = None.
Proof.
  intros Hw.
  assert (Hw' : 1 <= Z.max wsize MAX_BLOCK_SIZE <= 2 ^ 27) by (change MAX_BLOCK_SIZE with 131072; change (2 ^ 27) with 134217728 in *; lia).
  destruct (window_descriptor_range _ Hw') as (e & He & Ewd).
  destruct (window_of_descriptor e ck He) as (w & Ew & Ecw).
  unfold frame_header_bytes, fdec_reset, frame_front. rewrite Ewd, <- !app_assoc, fh_read.
  unfold fh_window_size. cbn [fh_wd fh_desc fh_fcs]. rewrite Ew. cbn [rbind].
  change (fd_max_window fdec_new) with DEFAULT_MAX_WINDOW_SIZE. rewrite Ecw. cbn [rbind fd_state fdec_new fh_dict_id].
  exists w. eexists _, _, _. split; [reflexivity|]. split; [reflexivity|]. split; [reflexivity|].
  split; [destruct ck; reflexivity|reflexivity].
Qed.

(** [Rel cs sc] relates the encoder state to the decoder state it assumes on the other side.  The hypothesis says of
    one non-empty block what the theorem says of the frame: what [enc_block] emitted is a block of the format (an
    item) whose content decoder appends the input block and keeps the states related. *)
Section AnyLevel.
  Variable cstate : Type.
  Variable cblock : cstate -> list Z -> list Z * cstate.
  Variable cskip : cstate -> list Z -> cstate.
  Variable cfallback : cstate -> cstate.
  Variable creset : cstate -> cstate.
  Variable lv : level.
  Variable Rel : cstate -> scratch -> Prop.
  Hypothesis block_item : forall cs sc last blk b cs', Rel cs sc -> blk <> [] -> Z.of_nat (length blk) <= 131072 ->
    enc_block cstate cblock cskip cfallback lv cs last blk = ROk (b, cs') ->
    exists it sc', item_ok it /\ block_bytes (bi_ty it) (bi_size it) last (bi_payload it) = ROk b /\
      item_run sc it = ROk sc' /\ db_all (sc_buf sc') = db_all (sc_buf sc) ++ blk /\ Rel cs' sc'.

  Lemma enc_blocks_items pre : forall blk cs sc out cs', Rel cs sc ->
    Forall (fun b => snd b = false /\ fst b <> []) pre ->
    Forall (fun b => Z.of_nat (length (fst b)) <= 131072) (pre ++ [(blk, true)]) ->
    enc_blocks cstate cblock cskip cfallback lv cs (pre ++ [(blk, true)]) = ROk (out, cs') ->
    exists items sc', items <> [] /\ Forall item_ok items /\ items_bytes items = ROk out /\ items_run sc items = ROk sc' /\
      db_all (sc_buf sc') = db_all (sc_buf sc) ++ concat (map fst (pre ++ [(blk, true)])).
  Proof.
    induction pre as [|[b last] t IH]; intros blk cs sc out cs' HR Fpre Fsz H; cbn [app] in *;
      inversion Fsz as [|? ? Hsz Fsz']; subst; cbn [fst] in Hsz; cbn [map concat fst].
    - destruct blk as [|x blk'].
      + (* the empty last block is a raw block of size 0 *)
        apply block_bytes_with in H as [H _].
        exists [{| bi_ty := 0; bi_size := length (@nil Z); bi_payload := [] |}], (sc_push_raw sc []).
        split; [discriminate|]. split; [constructor; [split; cbn; lia|constructor]|]. split; [exact H|].
        cbn [items_run]. rewrite item_run_raw. split; [reflexivity|]. apply push_raw_content.
      + rewrite enc_blocks_cons in H by discriminate. apply rbind_ok in H as ([b cs1] & E & [= <- _]).
        destruct (block_item cs sc true (x :: blk') b cs1 HR ltac:(discriminate) Hsz E) as (it & sc' & Hit & Hb & Hrun & Cont & _).
        exists [it], sc'. split; [discriminate|]. split; [constructor; [exact Hit|constructor]|]. split; [exact Hb|].
        cbn [items_run]. rewrite Hrun, app_nil_r. split; [reflexivity|exact Cont].
    - inversion Fpre as [|? ? [Hl Hne] Fpre']; subst. cbn [fst snd] in Hl, Hne. subst last.
      rewrite enc_blocks_cons in H by exact Hne.
      apply rbind_ok in H as ([b1 cs1] & E & H). apply rbind_ok in H as ([rest cs2] & Et & [= <- _]).
      destruct (block_item _ sc _ _ _ _ HR Hne Hsz E) as (it & sc1 & Hit & Hb & Hrun & Cont & HR1).
      destruct (IH _ _ sc1 _ _ HR1 Fpre' Fsz' Et) as (items & sc' & Ine & Iok & Ib & Irun & Icont).
      exists (it :: items), sc'. split; [discriminate|]. split; [constructor; assumption|].
      split; [rewrite items_bytes_cons, Hb, Ib by exact Ine; reflexivity|].
      cbn [items_run]. rewrite Hrun. split; [exact Irun|]. rewrite Icont, Cont, app_assoc. reflexivity.
  Qed.

  Theorem roundtrip_given_block_items slice wsize hash32 cs data script frame cs' r' :
    (forall w, Rel (creset cs) (scratch_new w)) -> 1 <= Z.of_nat slice <= 131072 -> 1 <= wsize <= 2 ^ 27 ->
    (forall h x, hash32 = Some h -> length (h x) = 4%nat) ->
    compress_frame cstate cblock cskip cfallback creset lv slice wsize hash32 cs
      {| rd_data := data; rd_script := script |} = ROk (frame, cs', r') ->
    frame_decodes_to frame data hash32.
  Proof.
    intros Hinit Hs Hw Hh Hc.
    assert (Hs1 : (1 <= slice)%nat) by lia.
    destruct (compress_frame_shape _ _ _ _ _ _ _ _ _ _ _ _ _ _ _ Hs1 Hc) as (bs & Ebs & ->).
    destruct (blocks_of_total (S (length data)) slice data) as (Ccat & _ & Csz); [lia|lia|].
    destruct (blocks_of_shape (S (length data)) slice data) as (pre & lastblk & Eshape & Fshape); [lia|lia|].
    rewrite Eshape in *.
    assert (Hsz : Forall (fun b => Z.of_nat (length (fst b)) <= 131072) (pre ++ [(lastblk, true)])).
    { eapply Forall_impl; [|exact Csz]. intros b Hb. cbn beta in Hb. lia. }
    set (tail := match hash32 with Some h => h data | None => [] end).
    destruct (frame_header_reset wsize (is_some hash32) (bs ++ tail) Hw) as (w & d1 & ev & s & Er & Es & Esc & Eck & Ecs).
    destruct (enc_blocks_items pre lastblk _ _ bs cs' (Hinit w) Fshape Hsz Ebs) as (items & sc' & Ine & Iok & Ib & Irun & Icont).
    rewrite <- Esc in Irun.
    destruct (frame_blocks_decode d1 s items bs tail [] sc' Es Ine Iok Ib Irun) as (d2 & s' & Ed & Es' & Fsc & _ & _ & Fck).
    { rewrite Eck. unfold tail. destruct hash32 as [h|]; [apply (Hh h data eq_refl)|reflexivity]. }
    rewrite app_nil_r in Ed. exists d1, (bs ++ tail), ev, s, d2, s'.
    split; [exact Er|]. split; [exact Es|]. split; [exact Ed|]. split; [exact Es'|]. split.
    - unfold buf_content. fold (db_all (sc_buf (fr_scratch s'))). rewrite Fsc, Icont, Ccat. reflexivity.
    - rewrite Fck, Eck, Ecs. unfold tail. destruct hash32; reflexivity.
  Qed.
End AnyLevel.

Section Roundtrip.
  Variable cstate : Type.
  Variable cblock : cstate -> list Z -> list Z * cstate.
  Variable cskip : cstate -> list Z -> cstate.
  Variable cfallback : cstate -> cstate.
  Variable creset : cstate -> cstate.

  (** at level Uncompressed the block encoder is never consulted, and nothing can fail *)
  Lemma enc_blocks_uncompressed_ok bl : forall cs, Forall (fun b => Z.of_nat (length (fst b)) <= 131072) bl ->
    exists out cs', enc_blocks cstate cblock cskip cfallback LUncompressed cs bl = ROk (out, cs').
  Proof.
    induction bl as [|[blk last] t IH]; intros cs H; [eexists _, _; reflexivity|].
    inversion H as [|? ? Hb Ht]; subst. cbn [fst] in Hb.
    destruct blk as [|b0 bt].
    - destruct (block_header_read 0 0 true [] []) as (hdr & E & _); [lia|cbn; lia|].
      cbn [enc_blocks]. rewrite E. eexists _, _. reflexivity.
    - rewrite enc_blocks_cons by discriminate. cbn [enc_block].
      destruct (block_header_read 0 (length (b0 :: bt)) last (b0 :: bt) []) as (hdr & E & _); [lia|exact Hb|].
      rewrite E. cbn [rbind]. destruct last; [eexists _, _; reflexivity|].
      destruct (IH cs Ht) as (rest & cs' & ->). eexists _, _. reflexivity.
  Qed.

  (** every input, every fragmentation of the reads, every block size up to 128 KiB, every advertised window up to
      128 MiB, any reused compressor state *)
  Theorem uncompressed_roundtrip slice wsize hash32 cs data script :
    1 <= Z.of_nat slice <= 131072 -> 1 <= wsize <= 2 ^ 27 ->
    (forall h x, hash32 = Some h -> length (h x) = 4%nat) ->
    exists frame cs' r',
      compress_frame cstate cblock cskip cfallback creset LUncompressed slice wsize hash32 cs
        {| rd_data := data; rd_script := script |} = ROk (frame, cs', r') /\
      frame_decodes_to frame data hash32.
  Proof.
    intros Hs Hw Hh.
    destruct (blocks_of_total (S (length data)) slice data) as (_ & _ & Csz); [lia|lia|].
    destruct (enc_blocks_uncompressed_ok (blocks_of (S (length data)) slice data) (creset cs)) as (bs & cs1 & Ebs).
    { eapply Forall_impl; [|exact Csz]. intros b Hb. cbn beta in Hb. lia. }
    pose proof (compress_frame_spec cstate cblock cskip cfallback creset LUncompressed slice wsize hash32 cs data script ltac:(lia)) as L.
    rewrite Ebs in L. cbn [rbind] in L.
    destruct (compress_frame cstate cblock cskip cfallback creset LUncompressed slice wsize hash32 cs _) as [[[frame cs'] r']|e|e] eqn:Ec;
      try discriminate L.
    exists frame, cs', r'. split; [reflexivity|].
    apply (roundtrip_given_block_items cstate cblock cskip cfallback creset LUncompressed (fun _ _ => True))
      with (slice := slice) (wsize := wsize) (cs := cs) (script := script) (cs' := cs') (r' := r'); try assumption; [|exact (fun _ => I)].
    intros c sc last blk b c' _ Hne Hsz H. cbn [enc_block] in H. apply block_bytes_with in H as [Hb _].
    exists {| bi_ty := 0; bi_size := length blk; bi_payload := blk |}, (sc_push_raw sc blk).
    split; [split; cbn [bi_ty bi_size]; lia|]. split; [exact Hb|]. split; [apply item_run_raw|].
    split; [apply push_raw_content|exact I].
  Qed.
End Roundtrip.
