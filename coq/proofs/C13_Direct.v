(** C13: the direct weight description (one header byte 127 + number of weights, then the weights as 4-bit fields, two per
    byte, the first in the high half; [HuffmanEncoder::write_table] for at most 16 weights, legal up to 128) is parsed
    by the decoder into exactly the weights that were written. *)
Require Import Zrs.lib.RsPrelude Zrs.lib.ListFacts Zrs.model.FseDec Zrs.model.HufDec Zrs.model.WeightEnc.
Open Scope Z_scope.

Lemma pack_length ws : Z.of_nat (length (pack_weights ws)) = (Z.of_nat (length ws) + 1) / 2.
Proof.
  induction ws as [|w|w1 w2 t IH] using list_pair_ind; [reflexivity|reflexivity|].
  cbn [pack_weights length]. rewrite !Nat2Z.inj_succ, IH. lia.
Qed.

Lemma nth_z_mid pre b tl : nth_z (pre ++ b :: tl) (Z.of_nat (length pre)) = b.
Proof. unfold nth_z. rewrite Nat2Z.id, app_nth2, Nat.sub_diag by lia. reflexivity. Qed.

Lemma direct_weights_pack ws rest : Forall (fun w => 0 <= w < 16) ws ->
  forall pre, direct_weights (length ws) (2 * Z.of_nat (length pre)) (pre ++ pack_weights ws ++ rest) = ws.
Proof.
  induction ws as [|w1|w1 w2 t IH] using list_pair_ind; intros Hw pre; [reflexivity| |];
    inversion Hw as [|? ? H1 Hw']; subst; cbn [length direct_weights pack_weights app];
    replace ((2 * Z.of_nat (length pre)) mod 2) with 0 by lia; replace (2 * Z.of_nat (length pre) / 2) with (Z.of_nat (length pre)) by lia;
    cbn [Z.eqb]; rewrite nth_z_mid.
  - f_equal. lia.
  - inversion Hw' as [|? ? H2 Hw'']; subst.
    replace ((2 * Z.of_nat (length pre) + 1) mod 2) with 1 by lia. replace ((2 * Z.of_nat (length pre) + 1) / 2) with (Z.of_nat (length pre)) by lia.
    cbn [Z.eqb]. rewrite nth_z_mid. f_equal; [lia|]. f_equal; [lia|].
    specialize (IH Hw'' (pre ++ [w1 * 16 + w2])). rewrite app_length, <- app_assoc in IH. cbn [length app] in IH.
    replace (2 * Z.of_nat (length pre) + 1 + 1) with (2 * Z.of_nat (length pre + 1)) by lia. exact IH.
Qed.

Theorem direct_description_roundtrip t ws rest : (1 <= length ws <= 128)%nat -> Forall (fun w => 0 <= w < 16) ws ->
  read_weights t (direct_desc ws ++ rest) = ROk (ws, ht_fse t, Z.of_nat (length (direct_desc ws))).
Proof.
  intros Hl Hw. unfold direct_desc. cbn [app]. unfold read_weights.
  destruct (Z.ltb_spec (Z.of_nat (length ws) + 127) 128) as [|_]; [lia|].
  replace (Z.of_nat (length ws) + 127 - 127) with (Z.of_nat (length ws)) by lia. cbv zeta.
  pose proof (pack_length ws) as Lp.
  assert (Hneed : (if Z.of_nat (length ws) mod 2 =? 0 then Z.of_nat (length ws) / 2 else Z.of_nat (length ws) / 2 + 1) = (Z.of_nat (length ws) + 1) / 2).
  { destruct (Z.eqb_spec (Z.of_nat (length ws) mod 2) 0); lia. }
  rewrite Hneed. rewrite app_length.
  destruct (Z.ltb_spec (Z.of_nat (length (pack_weights ws) + length rest)) ((Z.of_nat (length ws) + 1) / 2)) as [|_]; [lia|].
  rewrite Nat2Z.id. pose proof (direct_weights_pack ws rest Hw []) as D. cbn [length app] in D. change (2 * Z.of_nat 0) with 0 in D. rewrite D.
  do 2 f_equal. cbn [length]. destruct (Z.eqb_spec ((8 + 4 * Z.of_nat (length ws)) mod 8) 0); lia.
Qed.

Corollary direct_description_table t ws rest : (1 <= length ws <= 128)%nat -> Forall (fun w => 0 <= w < 16) ws ->
  huf_build_decoder t (direct_desc ws ++ rest) =
    let* (dec, max_bits, bits, ranks, idxs) := build_table_from_weights ws in
    ROk ({| ht_decode := dec; ht_len := 2 ^ max_bits; ht_weights := ws; ht_max_bits := max_bits; ht_bits := bits; ht_bit_ranks := ranks;
            ht_rank_indexes := idxs; ht_fse := ht_fse t |}, Z.of_nat (length (direct_desc ws))).
Proof. intros Hl Hw. unfold huf_build_decoder. rewrite (direct_description_roundtrip t ws rest Hl Hw). reflexivity. Qed.
