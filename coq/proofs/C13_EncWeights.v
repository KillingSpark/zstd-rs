(** C13: the weights the table writer derives back from the code lengths ([HuffmanEncoder::weights], model
    [enc_weights]) are the weights the code was built from, for every complete weight list whose smallest weight is 1
    (the compressor's shape has that for every alphabet size: [shape_has_one]); symbols of weight 0 get no code. *)
Require Import Zrs.lib.RsPrelude Zrs.model.HufEnc.
Require Import Zrs.proofs.C13_EncCanon.
Open Scope Z_scope.

Lemma assign_enc_length es : forall M cc cw cb codes, Forall (fun e => 0 <= fst e < Z.of_nat (length codes)) es ->
  length (assign_enc es M cc cw cb codes) = length codes.
Proof.
  induction es as [|[sym w] t IH]; intros M cc cw cb codes Hr; cbn [assign_enc]; [reflexivity|].
  inversion Hr as [|? ? Hsym Hr']; subst. cbn [fst] in Hsym.
  destruct (if negb (cw =? w) then (cc / 2 ^ (w - cw), M - w + 1, w) else (cc, cb, cw)) as [[cc1 cb1] cw1].
  assert (L1 : length (firstn (Z.to_nat sym) codes ++ [(cc1, cb1)] ++ skipn (S (Z.to_nat sym)) codes) = length codes).
  { rewrite !app_length, firstn_length, skipn_length. cbn [length]. lia. }
  rewrite IH; [exact L1|]. rewrite L1. exact Hr'.
Qed.

Theorem enc_codes_length W nmax codes : Forall (fun w => 0 <= w <= Z.of_nat nmax) W ->
  enc_build_from_weights W = ROk codes -> length codes = length W.
Proof.
  intros Hw Hb. unfold enc_build_from_weights in Hb. destruct (is_pow2z (kraft W)); cbn [negb] in Hb; [|discriminate]. injection Hb as <-.
  rewrite (sorted_entries_groups nmax W 0 Hw). rewrite assign_enc_length; [apply map_length|].
  apply Forall_forall. intros e He. destruct (groups_spec _ _ _ _ _ He) as (_ & B & _). rewrite map_length. lia.
Qed.

Theorem enc_codes_unused W nmax codes : Forall (fun w => 0 <= w <= Z.of_nat nmax) W ->
  enc_build_from_weights W = ROk codes ->
  forall s, 0 <= s < Z.of_nat (length W) -> nth (Z.to_nat s) W (-1) = 0 -> nth (Z.to_nat s) codes (0, 0) = (0, 0).
Proof.
  intros Hw Hb s Hs Hz. unfold enc_build_from_weights in Hb.
  destruct (is_pow2z (kraft W)); cbn [negb] in Hb; [|discriminate]. injection Hb as <-.
  rewrite (sorted_entries_groups nmax W 0 Hw).
  rewrite assign_enc_nth; [|apply groups_nodup| |lia].
  2:{ apply Forall_forall. intros e He. destruct (groups_spec _ _ _ _ _ He) as (_ & B & _). rewrite map_length. lia. }
  (* the walk never meets a symbol of weight 0 *)
  rewrite acode_none.
  - exact (map_nth (fun _ : Z => (0, 0)) W 0 (Z.to_nat s)).
  - intros Hin. apply in_map_iff in Hin as (e & <- & He). destruct (groups_spec _ _ _ _ _ He) as (A & B & C).
    rewrite Z.sub_0_r, (nth_indep W _ (-1)) in C by lia. lia.
Qed.

Lemma fold_max_snd (codes : list (Z * Z)) M : 0 <= M -> (forall c, In c codes -> snd c <= M) -> (exists c, In c codes /\ snd c = M) ->
  fold_right (fun c acc => Z.max (snd c) acc) 0 codes = M.
Proof.
  intros HM Hle [c0 [Hin E]].
  assert (Hub : fold_right (fun c acc => Z.max (snd c) acc) 0 codes <= M).
  { clear Hin. induction codes as [|c t IH]; cbn [fold_right]; [lia|]. pose proof (Hle c (or_introl eq_refl)). specialize (IH (fun x Hx => Hle x (or_intror Hx))). lia. }
  assert (Hlb : M <= fold_right (fun c acc => Z.max (snd c) acc) 0 codes).
  { clear Hub Hle. induction codes as [|c t IH]; cbn [fold_right In] in *; [contradiction|]. destruct Hin as [->|Hin]; [lia|]. specialize (IH Hin). lia. }
  lia.
Qed.

Lemma enc_code_lengths W codes : let M := Z.log2 (kraft W) in
  Forall (fun w => 0 <= w <= M) W -> enc_build_from_weights W = ROk codes ->
  length codes = length W /\
  forall i, (i < length W)%nat -> snd (nth i codes (0, 0)) = if 0 <? nth i W 0 then M + 1 - nth i W 0 else 0.
Proof.
  intros M Hw Hb. assert (HM0 : 0 <= M) by apply Z.log2_nonneg.
  assert (Hw' : Forall (fun w => 0 <= w <= Z.of_nat (Z.to_nat M)) W) by (rewrite Z2Nat.id by lia; exact Hw).
  split; [exact (enc_codes_length W _ codes Hw' Hb)|]. intros i Hi. rewrite (nth_indep W 0 (-1) Hi).
  destruct (Z.ltb_spec 0 (nth i W (-1))) as [Hp|Hp].
  - pose proof (enc_codes_closed_form W _ codes Hw' Hb (Z.of_nat i) ltac:(lia)) as E. rewrite Nat2Z.id in E. rewrite (E Hp). cbn [snd]. fold M. lia.
  - pose proof (enc_codes_unused W _ codes Hw' Hb (Z.of_nat i) ltac:(lia)) as E. rewrite Nat2Z.id in E. rewrite E; [reflexivity|].
    rewrite Forall_forall in Hw. pose proof (Hw _ (nth_In W (-1) Hi)). lia.
Qed.

Theorem enc_weights_are_the_weights W codes : let M := Z.log2 (kraft W) in
  Forall (fun w => 0 <= w <= M) W -> In 1 W -> enc_build_from_weights W = ROk codes -> enc_weights codes = W.
Proof.
  intros M Hw H1 Hb. assert (HM0 : 0 <= M) by apply Z.log2_nonneg.
  destruct (enc_code_lengths W codes Hw Hb) as (L & Hsnd). fold M in Hsnd.
  assert (Hnth : forall i, (i < length W)%nat -> 0 <= nth i W 0 <= M).
  { intros i Hi. rewrite Forall_forall in Hw. apply Hw. apply nth_In. exact Hi. }
  (* the longest code belongs to a symbol of weight 1 *)
  assert (Emx : fold_right (fun c acc => Z.max (snd c) acc) 0 codes = M).
  { apply fold_max_snd; [exact HM0| |].
    - intros c Hc. destruct (In_nth _ _ (0, 0) Hc) as (i & Hi & <-). rewrite L in Hi. rewrite (Hsnd i Hi). pose proof (Hnth i Hi). destruct (0 <? nth i W 0) eqn:E; lia.
    - destruct (In_nth _ _ 0 H1) as (i & Hi & Ei). exists (nth i codes (0, 0)). split; [apply nth_In; lia|]. rewrite (Hsnd i Hi), Ei. cbn [Z.ltb Z.compare]. lia. }
  unfold enc_weights. rewrite Emx. set (f := fun c : Z * Z => if snd c =? 0 then 0 else M - snd c + 1).
  apply (nth_ext _ _ 0 0); [rewrite map_length; exact L|].
  intros i Hi. rewrite map_length, L in Hi.
  rewrite (nth_indep (map f codes) 0 (f (0, 0))) by (rewrite map_length; lia). rewrite map_nth. unfold f.
  rewrite (Hsnd i Hi). pose proof (Hnth i Hi). destruct (Z.ltb_spec 0 (nth i W 0)).
  - destruct (Z.eqb_spec (M + 1 - nth i W 0) 0); lia.
  - cbn [Z.eqb]. lia.
Qed.
