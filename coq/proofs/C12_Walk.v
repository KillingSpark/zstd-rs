(** C12 / C03: the spreading phase of the FSE table construction in general (with "less than one" probabilities placed
    at the top of the table): the positions it writes are the elements of the step's orbit that lie below the first
    "less than one" slot, in orbit order. *)
Require Import Zrs.lib.RsPrelude Zrs.proofs.ModelFacts Zrs.lib.ListFacts Zrs.model.FseDec.
Require Import Zrs.proofs.C12_Fse.
Open Scope Z_scope.

Lemma mem_z_In x l : mem_z x l = true <-> In x l.
Proof.
  induction l as [|y t IH]; cbn [mem_z In]; [split; [discriminate|tauto]|].
  rewrite Bool.orb_true_iff, IH. split; intros [H|H]; auto; [left; lia|left; lia].
Qed.
Lemma nodup_z_NoDup l : nodup_z l = true -> NoDup l.
Proof.
  induction l as [|x t IH]; cbn [nodup_z]; intros H; [constructor|]. apply andb_prop in H as [H1 H2].
  constructor; [|apply IH; exact H2]. intros Hin. apply mem_z_In in Hin. rewrite Hin in H1. discriminate.
Qed.

Lemma orbit_length n : forall pos size, length (orbit n pos size) = n.
Proof. induction n as [|n IH]; intros pos size; cbn [orbit length]; [reflexivity|]. rewrite IH. reflexivity. Qed.

Lemma next_position_range p size : 0 < size -> 0 <= next_position p size < size.
Proof. intros H. unfold next_position. apply Z.mod_pos_bound. exact H. Qed.

Lemma orbit_facts al : 5 <= al <= 9 ->
  let size := 2 ^ al in let O := orbit (Z.to_nat size) 0 size in
  NoDup O /\ (forall x, In x O -> 0 <= x < size) /\ length O = Z.to_nat size /\
  next_position (last O 0) size = 0 /\ exists t, O = 0 :: t.
Proof.
  intros Ha size O. pose proof (spreading_step_is_a_permutation al Ha) as C. unfold orbit_check in C. fold size in C. fold O in C.
  apply andb_prop in C as [C C3]. apply andb_prop in C as [C1 C2].
  split; [apply nodup_z_NoDup; exact C1|]. split; [|split; [apply orbit_length|split; [lia|]]].
  - intros x Hx. rewrite forallb_forall in C2. specialize (C2 x Hx). lia.
  - assert (Hs : 0 < size) by (apply Z.pow_pos_nonneg; lia).
    unfold O. destruct (Z.to_nat size) as [|n] eqn:E; [lia|]. cbn [orbit]. eexists. reflexivity.
Qed.

Definition set_sym (dec : list fse_entry) (pos sym : Z) : list fse_entry :=
  upd dec (Z.to_nat pos) {| e_base := e_base (nth_e dec pos); e_bits := e_bits (nth_e dec pos); e_sym := sym |}.
Fixpoint write_list (dec : list fse_entry) (ws : list (Z * Z)) : list fse_entry :=
  match ws with [] => dec | (pos, sym) :: t => write_list (set_sym dec pos sym) t end.

Lemma set_sym_length dec pos sym : length (set_sym dec pos sym) = length dec.
Proof. apply upd_length. Qed.
Lemma write_list_length ws : forall dec, length (write_list dec ws) = length dec.
Proof. induction ws as [|[p s] t IH]; intros dec; cbn [write_list]; [reflexivity|]. rewrite IH. apply set_sym_length. Qed.
Lemma write_list_app a : forall dec b, write_list dec (a ++ b) = write_list (write_list dec a) b.
Proof. induction a as [|[p s] t IH]; intros dec b; cbn [app write_list]; [reflexivity|]. apply IH. Qed.

(** the symbols in the order they are written: symbol [sym0 + i] repeated [p_i] times *)
Fixpoint syms (probs : list Z) (sym : Z) : list Z :=
  match probs with
  | [] => []
  | p :: t => (if p <=? 0 then [] else repeat (sym mod 256) (Z.to_nat p)) ++ syms t (sym + 1)
  end.

Lemma combine_repeat (ps : list Z) (s : Z) : combine ps (repeat s (length ps)) = map (fun p => (p, s)) ps.
Proof. induction ps as [|p t IH]; cbn [length repeat combine map]; [reflexivity|]. rewrite IH. reflexivity. Qed.

Definition sym_at (dec : list fse_entry) (i : Z) : Z := e_sym (nth_e dec i).

Lemma set_sym_same dec pos sym : 0 <= pos < Z.of_nat (length dec) -> sym_at (set_sym dec pos sym) pos = sym.
Proof. intros H. unfold sym_at, set_sym, nth_e. rewrite nth_upd_eq by lia. reflexivity. Qed.
Lemma set_sym_other dec pos sym i : 0 <= pos -> 0 <= i -> i <> pos -> nth_e (set_sym dec pos sym) i = nth_e dec i.
Proof. intros Hp Hi Hn. unfold set_sym, nth_e. apply nth_upd_neq. lia. Qed.

Lemma write_list_other ws : forall dec i, 0 <= i -> Forall (fun w => 0 <= fst w) ws -> ~ In i (map fst ws) ->
  nth_e (write_list dec ws) i = nth_e dec i.
Proof.
  induction ws as [|[p s] t IH]; intros dec i Hi Hnn Hni; cbn [write_list]; [reflexivity|].
  inversion Hnn; subst. cbn [map fst In] in *. rewrite IH; [|exact Hi|assumption|tauto].
  apply set_sym_other; [assumption|exact Hi|intros ->; tauto].
Qed.

Lemma write_list_at ws : forall dec p s, NoDup (map fst ws) -> Forall (fun w => 0 <= fst w < Z.of_nat (length dec)) ws ->
  In (p, s) ws -> sym_at (write_list dec ws) p = s.
Proof.
  induction ws as [|[p0 s0] t IH]; intros dec p s Hnd Hr Hin; [contradiction|].
  cbn [write_list]. inversion Hnd as [|? ? Hni Hnd']; subst. inversion Hr as [|? ? Hr0 Hr']; subst. cbn [fst] in Hr0.
  destruct Hin as [E|Hin].
  - injection E as <- <-. unfold sym_at. rewrite write_list_other; [apply set_sym_same; exact Hr0|lia| |exact Hni].
    eapply Forall_impl; [|exact Hr']. cbn. intros; lia.
  - apply IH; [exact Hnd'| |exact Hin]. eapply Forall_impl; [|exact Hr']. cbn. intros w Hw. rewrite set_sym_length. exact Hw.
Qed.

Lemma map_sym_at_combine O : forall S dec, length O = length S -> NoDup O ->
  Forall (fun p => 0 <= p < Z.of_nat (length dec)) O ->
  map (sym_at (write_list dec (combine O S))) O = S.
Proof.
  intros S dec Hl Hnd Hr.
  assert (G : forall k, (k < length O)%nat -> sym_at (write_list dec (combine O S)) (nth k O 0) = nth k S 0).
  { intros k Hk. apply write_list_at.
    - rewrite map_fst_combine by exact Hl. exact Hnd.
    - apply Forall_forall. intros [p s] Hin. cbn [fst]. apply in_combine_l in Hin. rewrite Forall_forall in Hr. apply Hr. exact Hin.
    - rewrite <- (combine_nth O S k 0 0 Hl). apply nth_In. rewrite combine_length. lia. }
  apply nth_ext with (d := 0) (d' := 0); [rewrite map_length; exact Hl|].
  intros k Hk. rewrite map_length in Hk.
  rewrite (nth_indep _ 0 (sym_at (write_list dec (combine O S)) 0)) by (rewrite map_length; exact Hk).
  rewrite map_nth. apply G. exact Hk.
Qed.

Section Walk.
  Variable size neg : Z.
  Hypothesis Hsize : 0 < size.
  Hypothesis Hneg : 0 <= neg <= size.

  Definition small (x : Z) : bool := x <? neg.
  Definition smalls (l : list Z) : list Z := filter small l.

  Fixpoint chain_from (x : Z) (l : list Z) : Prop :=
    match l with [] => True | y :: t => y = next_position x size /\ chain_from y t end.

  Lemma chain_nonneg l : forall x, chain_from x l -> forall z, In z l -> 0 <= z.
  Proof.
    induction l as [|y l IH]; intros x Hc z Hz; [contradiction|]. destruct Hc as (Ey & Hc).
    destruct Hz as [<-|Hz]; [rewrite Ey; apply next_position_range; exact Hsize|apply (IH y Hc z Hz)].
  Qed.

  (** drop the future up to and including its n-th small element *)
  Fixpoint ds (l : list Z) (n : nat) : list Z :=
    match l with
    | [] => []
    | y :: t => match n with O => l | S k => if small y then ds t k else ds t (S k) end
    end.

  Lemma smalls_ds l : forall n, smalls (ds l n) = skipn n (smalls l).
  Proof.
    induction l as [|y t IH]; intros n; [destruct n; reflexivity|]. destruct n as [|k]; [reflexivity|].
    cbn [ds smalls filter]. destruct (small y) eqn:E; [rewrite IH; reflexivity|rewrite IH; cbn [smalls]; reflexivity].
  Qed.

  Lemma chain_ds l : forall n x, chain_from x l -> (n <= length (smalls l))%nat ->
    chain_from (nth n (x :: smalls l) 0) (ds l n).
  Proof.
    induction l as [|y t IH]; intros n x Hc Hn.
    - unfold smalls in Hn. cbn in Hn. assert (n = 0%nat) by lia. subst n. exact I.
    - destruct n as [|k]; [cbn [nth ds]; exact Hc|]. destruct Hc as (Ey & Hc).
      cbn [ds smalls filter] in *. destruct (small y) eqn:E.
      + cbn [length] in Hn. cbn [nth]. apply (IH k y Hc). unfold smalls. lia.
      + cbn [nth]. specialize (IH (S k) y Hc Hn). cbn [nth] in IH. exact IH.
  Qed.

  Lemma ds_length l : forall n, (length (ds l n) <= length l)%nat.
  Proof.
    induction l as [|y t IH]; intros n; [destruct n; cbn; lia|]. destruct n as [|k]; cbn [ds length]; [lia|].
    destruct (small y); [specialize (IH k)|specialize (IH (S k))]; lia.
  Qed.

  Lemma skip_finds g : forall fuel x y rest, chain_from x (g ++ y :: rest) -> Forall (fun z => small z = false) g -> small y = true ->
    (length g < fuel)%nat -> skip_taken fuel (next_position x size) neg size = ROk y /\ chain_from y rest.
  Proof.
    induction g as [|z g IH]; intros fuel x y rest Hc Hg Hy Hf; (destruct fuel as [|f]; [cbn in Hf; lia|]);
      cbn [skip_taken]; cbn [app chain_from] in Hc; destruct Hc as (E & Hc); rewrite <- E.
    - unfold small in Hy. destruct (Z.leb_spec neg y); [lia|]. split; [reflexivity|exact Hc].
    - inversion Hg as [|? ? Hz Hg']; subst. unfold small in Hz.
      destruct (Z.leb_spec neg (next_position x size)) as [_|]; [|lia]. apply (IH f _ y rest Hc Hg' Hy). cbn in Hf. lia.
  Qed.

  Lemma split_at_small l : smalls l <> [] -> exists g y rest, l = g ++ y :: rest /\ Forall (fun z => small z = false) g /\ small y = true /\
    smalls l = y :: smalls rest.
  Proof.
    induction l as [|z t IH]; intros Hne; [cbn in Hne; congruence|]. cbn [smalls filter] in Hne. destruct (small z) eqn:E.
    - exists [], z, t. cbn [app smalls filter]. rewrite E. repeat split; constructor.
    - destruct (IH Hne) as (g & y & rest & -> & Hg & Hy & Hs). exists (z :: g), y, rest. cbn [app smalls filter]. rewrite E.
      repeat split; try assumption. constructor; assumption.
  Qed.

  Lemma spread_one_walk n : forall sym x l dec, small x = true -> 0 <= x -> chain_from x l ->
    (n <= length (smalls l))%nat -> (length l <= Z.to_nat size)%nat -> Z.of_nat (length dec) = size ->
    spread_one n sym x neg size dec =
      ROk (nth n (x :: smalls l) 0, write_list dec (map (fun p => (p, sym)) (firstn n (x :: smalls l)))).
  Proof.
    induction n as [|n IH]; intros sym x l dec Hx Hx0 Hc Hn Hl Hd; cbn [spread_one nth firstn map write_list]; [reflexivity|].
    unfold small in Hx. destruct (Z.leb_spec (Z.of_nat (length dec)) x) as [H|_]; [lia|].
    assert (Hne : smalls l <> []) by (destruct (smalls l); [cbn in Hn; lia|discriminate]).
    destruct (split_at_small l Hne) as (g & y & rest & El & Hg & Hy & Hs).
    rewrite El in Hc. rewrite El, app_length in Hl. cbn [length] in Hl.
    destruct (skip_finds g (S (Z.to_nat size)) x y rest Hc Hg Hy ltac:(lia)) as (Esk & Hcy). rewrite Esk.
    cbn [rbind]. fold (set_sym dec x sym). rewrite Hs in Hn |- *. cbn [length] in Hn.
    assert (Hy0 : 0 <= y) by (apply (chain_nonneg _ x Hc); apply in_or_app; right; left; reflexivity).
    apply (IH sym y rest (set_sym dec x sym) Hy Hy0 Hcy); [lia|lia|rewrite set_sym_length; exact Hd].
  Qed.

  Lemma skipn_nth_cons (x : Z) sm : forall n, (n <= length sm)%nat -> skipn n (x :: sm) = nth n (x :: sm) 0 :: skipn n sm.
  Proof.
    revert x. induction sm as [|y t IH]; intros x n Hn.
    - cbn in Hn. assert (n = 0%nat) by lia. subst n. reflexivity.
    - destruct n as [|k]; [reflexivity|]. cbn [skipn nth]. apply IH. cbn in Hn. lia.
  Qed.

  Lemma nth_in_or (x : Z) sm n : (n <= length sm)%nat -> nth n (x :: sm) 0 = x \/ In (nth n (x :: sm) 0) sm.
  Proof. intros Hn. destruct n as [|k]; [left; reflexivity|right]. cbn [nth]. apply nth_In. lia. Qed.

  Lemma spread_walk probs : forall sym x l dec, small x = true -> 0 <= x -> chain_from x l ->
    (length (syms probs sym) <= length (smalls l))%nat -> (length l <= Z.to_nat size)%nat -> Z.of_nat (length dec) = size ->
    spread probs sym x neg size dec =
      ROk (write_list dec (combine (firstn (length (syms probs sym)) (x :: smalls l)) (syms probs sym))).
  Proof.
    induction probs as [|p t IH]; intros sym x l dec Hx Hx0 Hc Hn Hl Hd; cbn [spread syms] in *; [reflexivity|].
    destruct (Z.leb_spec p 0) as [Hp0|Hp0]; [cbn [app] in *; apply IH; assumption|].
    rewrite app_length, repeat_length in Hn.
    rewrite (spread_one_walk (Z.to_nat p) (sym mod 256) x l dec Hx Hx0 Hc ltac:(lia) Hl Hd). cbn [rbind].
    set (n := Z.to_nat p) in *.
    assert (Hx' : small (nth n (x :: smalls l) 0) = true /\ 0 <= nth n (x :: smalls l) 0).
    { destruct (nth_in_or x (smalls l) n ltac:(lia)) as [->|Hin]; [split; assumption|].
      apply filter_In in Hin as (Hin & Hsm). split; [exact Hsm|exact (chain_nonneg l x Hc _ Hin)]. }
    rewrite (IH (sym + 1) _ (ds l n) _ (proj1 Hx') (proj2 Hx') (chain_ds l n x Hc ltac:(lia))).
    - f_equal. rewrite smalls_ds. rewrite app_length, repeat_length. fold n.
      rewrite <- (skipn_nth_cons x (smalls l) n) by lia.
      rewrite <- write_list_app. f_equal.
      rewrite <- (firstn_skipn n (firstn (n + length (syms t (sym + 1))) (x :: smalls l))).
      rewrite firstn_firstn, Nat.min_l by lia.
      rewrite combine_app2 by (rewrite firstn_length, repeat_length; cbn [length]; lia).
      f_equal.
      + rewrite <- (combine_repeat (firstn n (x :: smalls l)) (sym mod 256)). rewrite firstn_length. cbn [length]. rewrite Nat.min_l by lia. reflexivity.
      + f_equal. rewrite skipn_firstn_comm. f_equal. lia.
    - rewrite smalls_ds, skipn_length. lia.
    - pose proof (ds_length l n). lia.
    - rewrite write_list_length. exact Hd.
  Qed.
End Walk.
