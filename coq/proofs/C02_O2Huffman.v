(** C02 / C13 / C16: obligation O2 for Huffman-coded literals written with the compressor's own canonical code.
    One theorem carries the argument ([coded_section_meets_O2]): if the table [t] the decoder holds for the section
    came out of its builder and the compressor's code gives every literal the code word read off [t]
    ([serves]), the section -- header, description, four streams -- is read back as exactly the literals.  That
    premise holds for the code of ANY weights the decoder accepts ([accepted_weights_serve]), in particular for every
    complete weight list ([complete_weights_serve]); how the weights are chosen (histogram, rank order,
    [distribute_weights]) plays no role.  The statements for a new table, for the table of an earlier block
    (treeless) and for the weight multisets the compressor uses ([shape n], however distributed over the symbols)
    follow. *)
Require Import Zrs.lib.RsPrelude Zrs.proofs.ModelFacts Zrs.lib.ListFacts Zrs.model.FseDec Zrs.model.HufDec Zrs.model.BlockDec Zrs.model.LitEnc Zrs.model.HufEnc.
Require Import Permutation.
Require Import Zrs.proofs.C13_Huffman Zrs.proofs.C13_Canonical Zrs.proofs.C13_Agree Zrs.proofs.C13_Accepted.
Require Import Zrs.proofs.C02_HufSide Zrs.proofs.C02_Concrete Zrs.proofs.C02_O2Table.
Open Scope Z_scope.

Lemma huf4_ext c1 c2 lits : (forall s, In s lits -> c1 s = c2 s) -> huf4_bytes c1 lits = huf4_bytes c2 lits.
Proof.
  intros H. unfold huf4_bytes, split4. set (q := quarter (length lits)).
  assert (A : forall l, (forall x, In x l -> In x lits) -> hstream c1 l = hstream c2 l).
  { intros l Hl. unfold hstream. f_equal. apply map_ext_in. intros s Hs. apply H, Hl, in_rev, Hs. }
  rewrite !(A (firstn q _)) by (intros x Hx; apply firstn_In' in Hx; try apply skipn_In' in Hx; exact Hx).
  rewrite (A (skipn _ lits)) by (intros x Hx; apply (skipn_In' _ _ _ Hx)). reflexivity.
Qed.

Definition serves (t : huf_table) (codes : list (Z * Z)) (s : Z) : Prop :=
  code_fn codes s = code_of_dec t s /\ exists i, 0 <= i < 2 ^ ht_max_bits t /\ h_sym (nth_h (ht_decode t) i) = s.
Definition has_code (ws : list Z) (lw s : Z) : Prop := 0 <= s <= Z.of_nat (length ws) /\ 0 < nth (Z.to_nat s) (ws ++ [lw]) 0.
(** quantified over [t]: what is served depends on the entries and the width of a table only *)
Definition code_serves (dec : list huf_entry) (M : Z) (ws : list Z) (lw : Z) (codes : list (Z * Z)) : Prop :=
  forall t, ht_decode t = dec -> ht_max_bits t = M -> forall s, has_code ws lw s -> serves t codes s.

Theorem coded_section_meets_O2 h t ty desc lits codes :
  built t -> Forall (serves t codes) lits -> 16 <= Z.of_nat (length lits) <= 131072 ->
  let payload := desc ++ huf4_bytes (code_fn codes) lits in
  (ty = 2 /\ huf_build_decoder h payload = ROk (t, zlen desc)) \/ (ty = 3 /\ desc = [] /\ h = t) ->
  zlen payload < zlen lits ->
  lit_ok h lits (huf_lit_header ty (zlen lits) (zlen payload)) payload t.
Proof.
  intros Hb Hs Hn. rewrite Forall_forall in Hs.
  rewrite (huf4_ext (code_fn codes) (code_of_dec t) lits) by (intros s Hin; apply (Hs s Hin)).
  apply model_section_meets_O2; [exact Hb| |exact Hn]. apply Forall_forall. intros s Hin. apply (Hs s Hin).
Qed.

Lemma accepted_weights_le ws dec M bits ranks idxs : Forall (fun w => 0 <= w) ws ->
  build_table_from_weights ws = ROk (dec, M, bits, ranks, idxs) -> forall w, In w ws -> w <= M.
Proof.
  intros Hnn Hb w Hin. destruct (build_table_inv _ _ _ _ _ _ Hnn Hb) as (_ & _ & _ & _ & HW & _).
  apply (proj1 (Forall_forall _ _) HW w (in_or_app _ _ _ (or_introl Hin))).
Qed.

Theorem accepted_weights_serve ws dec M bits ranks idxs :
  Forall (fun w => 0 <= w) ws -> (length ws <= 255)%nat -> build_table_from_weights ws = ROk (dec, M, bits, ranks, idxs) ->
  exists lw codes, 1 <= lw <= M /\ enc_build_from_weights (ws ++ [lw]) = ROk codes /\ bits = map (bits_of M) (ws ++ [lw]) /\
    code_serves dec M ws lw codes.
Proof.
  intros Hnn Hlen Hb.
  set (t0 := {| ht_decode := dec; ht_len := 2 ^ M; ht_weights := ws; ht_max_bits := M; ht_bits := bits; ht_bit_ranks := ranks;
                ht_rank_indexes := idxs; ht_fse := fse_new 255 |}).
  destruct (encoder_and_decoder_agree ws dec M bits ranks idxs t0 Hnn Hlen Hb eq_refl eq_refl) as (lw & codes & Hlw & Henc & Hag & Ebits).
  exists lw, codes. split; [exact Hlw|]. split; [exact Henc|]. split; [exact Ebits|].
  intros t Hd Hm s [Hs Hpos]. split.
  - (* the code read off a table depends on its entries and width only *)
    transitivity (code_of_dec t0 s); [symmetry; apply (Hag s Hs Hpos)|]. unfold code_of_dec. rewrite Hd, Hm. reflexivity.
  - (* the symbol has a code length, hence a block of the table *)
    set (j := Z.to_nat s) in *. set (W := ws ++ [lw]) in *.
    assert (Hj : (j < length W)%nat) by (unfold W; rewrite app_length; cbn [length]; lia).
    assert (HwM : nth j W 0 <= M).
    { destruct (in_app_or ws [lw] _ (nth_In W 0 Hj)) as [Hin|[<-|[]]]; [exact (accepted_weights_le _ _ _ _ _ _ Hnn Hb _ Hin)|lia]. }
    assert (Hbit : 0 < nth j bits 0).
    { rewrite Ebits, (nth_indep _ 0 (bits_of M 0)), map_nth by (rewrite map_length; exact Hj). unfold bits_of. destruct (Z.ltb_spec 0 (nth j W 0)); lia. }
    destruct (built_table_blocks ws dec M bits ranks idxs Hnn Hlen Hb) as (placed & _ & Hblk & _ & Hsyms).
    destruct (Hsyms j ltac:(rewrite Ebits, map_length; exact Hj) Hbit) as (base & Hin & _).
    destruct (Hblk _ _ _ Hin) as (_ & _ & B3 & B4 & _ & B6).
    assert (P : 0 < 2 ^ Z.of_nat (Z.to_nat (M - nth j bits 0))) by (apply Z.pow_pos_nonneg; lia).
    exists base. rewrite Hd, Hm, (B6 base ltac:(lia)). cbn [h_sym]. lia.
Qed.

Definition complete_weights (ws : list Z) (lw M : Z) : Prop :=
  Forall (fun w => 0 <= w <= MAX_MAX_NUM_BITS) ws /\ (length ws <= 255)%nat /\ 1 <= lw <= M /\ M <= MAX_MAX_NUM_BITS /\
  0 < kraft ws /\ kraft (ws ++ [lw]) = 2 ^ M.

Lemma complete_weights_nonneg ws lw M : complete_weights ws lw M -> Forall (fun w => 0 <= w) ws.
Proof. intros (Hw & _). eapply Forall_impl; [|exact Hw]. cbv beta. lia. Qed.
(** the last weight is worth something, so no other weight can reach the whole sum *)
Lemma complete_weights_range ws lw M : complete_weights ws lw M -> Forall (fun w => 0 <= w <= M) (ws ++ [lw]).
Proof.
  intros (Hw & _ & Hlw & _ & _ & Hk). apply Forall_app. split; [|constructor; [lia|constructor]].
  rewrite Forall_forall in *. intros w Hin. split; [apply (Hw w Hin)|]. destruct (Z.lt_ge_cases 0 w) as [Hp|]; [|lia].
  rewrite kraft_snoc in Hk by lia. pose proof (kraft_ge w ws Hin Hp). pose proof (Z.pow_pos_nonneg 2 (lw - 1) ltac:(lia) ltac:(lia)).
  assert (w - 1 < M) by (apply (Z.pow_lt_mono_r_iff 2); lia). lia.
Qed.

Theorem complete_weights_serve ws lw M : complete_weights ws lw M ->
  exists dec bits ranks idxs codes, build_table_from_weights ws = ROk (dec, M, bits, ranks, idxs) /\
    enc_build_from_weights (ws ++ [lw]) = ROk codes /\ code_serves dec M ws lw codes.
Proof.
  intros Hc. pose proof (complete_weights_nonneg _ _ _ Hc) as Hnn. destruct Hc as (Hw & Hlen & Hlw & HM & Hpos & Hk).
  destruct (complete_weights_are_accepted ws lw M Hw Hlw HM Hpos Hk) as (dec & bits & ranks & idxs & Hb & Ebits).
  destruct (accepted_weights_serve ws dec M bits ranks idxs Hnn Hlen Hb) as (lw' & codes & Hlw' & Henc & Ebits' & Hserve).
  (* the weight the decoder infers is the last weight *)
  assert (lw' = lw).
  { rewrite Ebits, map_app in Ebits'. apply app_inj_tail in Ebits' as [_ E]. unfold bits_of in E. destruct (Z.ltb_spec 0 lw'); lia. }
  subst lw'. exists dec, bits, ranks, idxs, codes. split; [exact Hb|]. split; [exact Henc|exact Hserve].
Qed.

Lemma new_table_section_meets_O2 ws dec M bits ranks idxs lw codes h desc lits ft :
  Forall (fun w => 0 <= w) ws -> (length ws <= 255)%nat -> build_table_from_weights ws = ROk (dec, M, bits, ranks, idxs) ->
  code_serves dec M ws lw codes ->
  Forall (has_code ws lw) lits -> 16 <= Z.of_nat (length lits) <= 131072 ->
  let payload := desc ++ huf4_bytes (code_fn codes) lits in
  read_weights h payload = ROk (ws, ft, zlen desc) -> zlen payload < zlen lits ->
  exists t, lit_ok h lits (huf_lit_header 2 (zlen lits) (zlen payload)) payload t /\ built t /\ ht_weights t = ws /\ ht_fse t = ft.
Proof.
  intros Hnn Hlen Hb Hserve Hlits Hn payload Hrw Hpl.
  destruct (huf_build_decoder_intro _ _ _ _ _ _ _ _ _ _ Hrw Hb) as (t & Hbuild & Ew & Ef & Ed & Em).
  assert (Hbt : built t) by (split; [exists h, payload, (zlen desc); exact Hbuild|rewrite Ew; split; assumption]).
  exists t. split; [|split; [exact Hbt|split; assumption]].
  apply coded_section_meets_O2; [exact Hbt| |exact Hn|left; split; [reflexivity|exact Hbuild]|exact Hpl].
  eapply Forall_impl; [|exact Hlits]. apply (Hserve t Ed Em).
Qed.

Corollary huffman_section_meets_O2 ws dec M bits ranks idxs :
  Forall (fun w => 0 <= w) ws -> (length ws <= 255)%nat ->
  build_table_from_weights ws = ROk (dec, M, bits, ranks, idxs) ->
  exists lw codes, 1 <= lw <= M /\ enc_build_from_weights (ws ++ [lw]) = ROk codes /\ bits = map (bits_of M) (ws ++ [lw]) /\
    forall h desc lits ft,
      Forall (fun s => 0 <= s <= Z.of_nat (length ws) /\ 0 < nth (Z.to_nat s) (ws ++ [lw]) 0) lits ->
      16 <= Z.of_nat (length lits) <= 131072 ->
      let payload := desc ++ huf4_bytes (code_fn codes) lits in
      read_weights h payload = ROk (ws, ft, zlen desc) -> zlen payload < zlen lits ->
      exists t, lit_ok h lits (huf_lit_header 2 (zlen lits) (zlen payload)) payload t.
Proof.
  intros Hnn Hlen Hb.
  destruct (accepted_weights_serve ws dec M bits ranks idxs Hnn Hlen Hb) as (lw & codes & Hlw & Henc & Ebits & Hserve).
  exists lw, codes. split; [exact Hlw|]. split; [exact Henc|]. split; [exact Ebits|].
  intros h desc lits ft Hlits Hn payload Hrw Hpl.
  destruct (new_table_section_meets_O2 ws dec M bits ranks idxs lw codes h desc lits ft Hnn Hlen Hb Hserve Hlits Hn Hrw Hpl) as (t & Hok & _).
  exists t. exact Hok.
Qed.

Theorem complete_weights_section_meets_O2 ws lw M codes : complete_weights ws lw M -> enc_build_from_weights (ws ++ [lw]) = ROk codes ->
  forall h desc lits ft, Forall (has_code ws lw) lits -> 16 <= Z.of_nat (length lits) <= 131072 ->
    let payload := desc ++ huf4_bytes (code_fn codes) lits in
    read_weights h payload = ROk (ws, ft, zlen desc) -> zlen payload < zlen lits ->
    exists t, lit_ok h lits (huf_lit_header 2 (zlen lits) (zlen payload)) payload t /\ built t /\ ht_weights t = ws /\ ht_fse t = ft.
Proof.
  intros Hc Henc h desc lits ft. destruct (complete_weights_serve ws lw M Hc) as (dec & bits & ranks & idxs & codes' & Hb & Henc' & Hserve).
  rewrite Henc in Henc'. injection Henc' as <-.
  apply (new_table_section_meets_O2 ws dec M bits ranks idxs lw codes h desc lits ft (complete_weights_nonneg _ _ _ Hc) (proj1 (proj2 Hc)) Hb Hserve).
Qed.

Theorem huffman_section_for_complete_weights ws lw M :
  Forall (fun w => 0 <= w <= MAX_MAX_NUM_BITS) ws -> (length ws <= 255)%nat -> 1 <= lw <= M -> M <= MAX_MAX_NUM_BITS ->
  0 < kraft ws -> kraft (ws ++ [lw]) = 2 ^ M ->
  exists codes, enc_build_from_weights (ws ++ [lw]) = ROk codes /\
    forall h desc lits ft,
      Forall (fun s => 0 <= s <= Z.of_nat (length ws) /\ 0 < nth (Z.to_nat s) (ws ++ [lw]) 0) lits ->
      16 <= Z.of_nat (length lits) <= 131072 ->
      let payload := desc ++ huf4_bytes (code_fn codes) lits in
      read_weights h payload = ROk (ws, ft, zlen desc) -> zlen payload < zlen lits ->
      exists t, lit_ok h lits (huf_lit_header 2 (zlen lits) (zlen payload)) payload t.
Proof.
  intros Hw Hlen Hlw HM Hpos Hk. assert (Hc : complete_weights ws lw M) by (repeat split; assumption || lia).
  destruct (complete_weights_serve ws lw M Hc) as (_ & _ & _ & _ & codes & _ & Henc & _).
  exists codes. split; [exact Henc|]. intros h desc lits ft Hlits Hn payload Hrw Hpl.
  destruct (complete_weights_section_meets_O2 ws lw M codes Hc Henc h desc lits ft Hlits Hn Hrw Hpl) as (t & Hok & _). exists t. exact Hok.
Qed.

(** [ws ++ [lw]]: any distribution of the compressor's weight multiset [shape n] over the symbols, zeros for unused
    symbols in between (the compressor distributes by rank of the counts) *)
Theorem assignment_of_the_shape_is_complete n sh ws lw :
  2 <= n <= 256 -> shape n = ROk sh -> Permutation (filter (fun w => 0 <? w) (ws ++ [lw])) sh ->
  Forall (fun w => 0 <= w) (ws ++ [lw]) -> (length ws <= 255)%nat -> 0 < lw -> exists M, complete_weights ws lw M.
Proof.
  intros Hn Hsh Hperm Hnn Hlen Hlast.
  destruct (shape_valid n Hn) as (sh' & Esh & _ & Hpow & Hrange & _ & H11). rewrite Hsh in Esh. injection Esh as <-.
  set (M := Z.log2 (kraft sh)) in *. pose proof (Z.log2_nonneg (kraft sh)) as HM0. fold M in HM0.
  unfold is_pow2z in Hpow. fold M in Hpow. apply andb_prop in Hpow as [_ Hp2]. exists M.
  assert (KW : kraft (ws ++ [lw]) = 2 ^ M) by (rewrite <- kraft_filter, (kraft_perm _ _ Hperm); lia).
  (* every positive weight is a weight of the shape *)
  assert (Hpos_in : forall w, In w (ws ++ [lw]) -> 0 < w -> 1 <= w <= M).
  { intros w Hw Hp. rewrite Forall_forall in Hrange. apply Hrange, (Permutation_in _ Hperm), filter_In. split; [exact Hw|apply Z.ltb_lt; exact Hp]. }
  assert (Hlw : 1 <= lw <= M) by (apply Hpos_in; [apply in_or_app; right; left; reflexivity|exact Hlast]).
  unfold complete_weights, MAX_MAX_NUM_BITS. repeat split; try lia; try exact KW.
  - apply Forall_forall. intros w Hw. assert (HwW : In w (ws ++ [lw])) by (apply in_or_app; left; exact Hw).
    rewrite Forall_forall in Hnn. pose proof (Hnn w HwW). destruct (Z.lt_ge_cases 0 w) as [Hp|]; [pose proof (Hpos_in w HwW Hp)|]; lia.
  - (* the last weight alone does not fill the sum *)
    rewrite kraft_snoc in KW by lia. pose proof (kraft_nonneg ws). assert (2 ^ (lw - 1) < 2 ^ M) by (apply Z.pow_lt_mono_r; lia). lia.
Qed.

Theorem huffman_section_for_every_assignment_of_the_shape n sh W :
  2 <= n <= 256 -> shape n = ROk sh -> Permutation (filter (fun w => 0 <? w) W) sh ->
  Forall (fun w => 0 <= w) W -> (length W <= 256)%nat -> 0 < last W 0 ->
  let ws := removelast W in let lw := last W 0 in
  exists codes, enc_build_from_weights W = ROk codes /\
    forall h desc lits ft,
      Forall (fun s => 0 <= s <= Z.of_nat (length ws) /\ 0 < nth (Z.to_nat s) W 0) lits ->
      16 <= Z.of_nat (length lits) <= 131072 ->
      let payload := desc ++ huf4_bytes (code_fn codes) lits in
      read_weights h payload = ROk (ws, ft, zlen desc) -> zlen payload < zlen lits ->
      exists t, lit_ok h lits (huf_lit_header 2 (zlen lits) (zlen payload)) payload t.
Proof.
  intros Hn Hsh Hperm Hnn Hlen Hlast.
  destruct (exists_last (l := W) ltac:(intros ->; cbn in Hlast; lia)) as (ws & lw & ->).
  rewrite last_last in Hlast. rewrite app_length in Hlen. cbn [length] in Hlen. rewrite removelast_last, last_last.
  destruct (assignment_of_the_shape_is_complete n sh ws lw Hn Hsh Hperm Hnn ltac:(lia) Hlast) as (M & Hw & Hl & Hlw & HM & Hpos & Hk).
  exact (huffman_section_for_complete_weights ws lw M Hw Hl Hlw HM Hpos Hk).
Qed.

(** a treeless section: the compressor re-uses the table of an earlier block, which the decoder still holds *)
Lemma treeless_section_served t codes lits : built t -> Forall (serves t codes) lits -> 16 <= Z.of_nat (length lits) <= 131072 ->
  let payload := huf4_bytes (code_fn codes) lits in
  zlen payload < zlen lits -> lit_ok t lits (huf_lit_header 3 (zlen lits) (zlen payload)) payload t.
Proof. intros Hb Hs Hn. apply (coded_section_meets_O2 t t 3 [] lits codes Hb Hs Hn). right. repeat split. Qed.

Theorem treeless_section_meets_O2 ht0 src t used :
  huf_build_decoder ht0 src = ROk (t, used) -> Forall (fun w => 0 <= w) (ht_weights t) -> (length (ht_weights t) <= 255)%nat ->
  exists lw codes, enc_build_from_weights (ht_weights t ++ [lw]) = ROk codes /\
    forall lits,
      Forall (fun s => 0 <= s <= Z.of_nat (length (ht_weights t)) /\ 0 < nth (Z.to_nat s) (ht_weights t ++ [lw]) 0) lits ->
      16 <= Z.of_nat (length lits) <= 131072 ->
      let payload := huf4_bytes (code_fn codes) lits in
      zlen payload < zlen lits ->
      lit_ok t lits (huf_lit_header 3 (zlen lits) (zlen payload)) payload t.
Proof.
  intros Hb Hw Hl. destruct (huf_build_decoder_inv _ _ _ _ Hb) as (_ & Hbt).
  destruct (accepted_weights_serve _ _ _ _ _ _ Hw Hl Hbt) as (lw & codes & _ & Henc & _ & Hserve).
  exists lw, codes. split; [exact Henc|]. intros lits Hlits.
  apply treeless_section_served; [split; [exists ht0, src, used; exact Hb|split; assumption]|].
  eapply Forall_impl; [|exact Hlits]. apply (Hserve t eq_refl eq_refl).
Qed.

Theorem treeless_for_complete_weights t lw M codes : built t -> complete_weights (ht_weights t) lw M ->
  enc_build_from_weights (ht_weights t ++ [lw]) = ROk codes ->
  forall lits, Forall (has_code (ht_weights t) lw) lits -> 16 <= Z.of_nat (length lits) <= 131072 ->
    let payload := huf4_bytes (code_fn codes) lits in
    zlen payload < zlen lits -> lit_ok t lits (huf_lit_header 3 (zlen lits) (zlen payload)) payload t.
Proof.
  intros Hbt Hc Henc lits Hlits. pose proof Hbt as ((ht0 & src & used & Hb) & _).
  destruct (huf_build_decoder_inv _ _ _ _ Hb) as (_ & Hb1).
  destruct (complete_weights_serve _ lw M Hc) as (dec & bits & ranks & idxs & codes' & Hb2 & Henc' & Hserve).
  rewrite Hb1 in Hb2. injection Hb2 as Ed Em _ _ _. rewrite Henc in Henc'. injection Henc' as <-.
  apply treeless_section_served; [exact Hbt|]. eapply Forall_impl; [|exact Hlits]. apply (Hserve t Ed Em).
Qed.
