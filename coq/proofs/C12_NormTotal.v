(** C12: the normaliser returns (does not panic) on every histogram the block encoder gives it. *)
Require Import Zrs.lib.RsPrelude Zrs.model.FseNorm.
Require Import Zrs.proofs.C12_Norm.
Open Scope Z_scope.

Lemma zsum_filter_le l (f : Z -> bool) : Forall (fun p => 0 <= p) l -> zsum (filter f l) <= zsum l.
Proof.
  induction 1 as [|p t Hp _ IH]; [cbn; lia|]. cbn [filter]. destruct (f p); cbn [zsum fold_right]; fold (zsum t); fold (zsum (filter f t)); lia.
Qed.

(** the table of the largest permitted size must have room for every symbol: then the normaliser is total *)
Theorem norm_counts_total_gen counts max_log :
  5 <= max_log -> Forall (fun c => 0 <= c) counts -> 0 < last counts 0 -> (2 <= length counts)%nat ->
  Z.of_nat (length counts) <= 2 ^ max_log ->
  exists al probs, norm_counts counts max_log true = ROk (al, probs).
Proof.
  intros Hml Hc Hlast Hlen Hroom.
  destruct (norm_counts_spec counts max_log Hml Hc Hlast Hlen) as [(al & probs & E & _)|(Hno & _)]; [|lia].
  exists al, probs. exact E.
Qed.

Theorem norm_counts_total counts max_log :
  8 <= max_log -> Forall (fun c => 0 <= c) counts -> 0 < last counts 0 -> (2 <= length counts <= 256)%nat ->
  exists al probs, norm_counts counts max_log true = ROk (al, probs).
Proof.
  intros Hml Hc Hlast Hlen. apply norm_counts_total_gen; [lia|exact Hc|exact Hlast|lia|].
  assert (2 ^ 8 <= 2 ^ max_log) by (apply Z.pow_le_mono_r; lia). change (2 ^ 8) with 256 in H. lia.
Qed.
