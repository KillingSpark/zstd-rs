(** C02: the block encoder of proofs/C02_Concrete.v with the compressor's remembered table of any type [T], so that it
    can be the code list the source remembers; the frame theorem for the modelled normaliser and the modelled literals
    part. *)
Require Import Zrs.lib.RsPrelude Zrs.gen.Generated Zrs.model.HufDec Zrs.model.BlockDec Zrs.model.FrameDec Zrs.model.FrameEnc
  Zrs.model.Matcher.
Require Import Zrs.model.SeqSection Zrs.model.BlockEnc.
Require Import Zrs.proofs.C17_Matcher Zrs.proofs.C02_Roundtrip Zrs.proofs.C02_Concrete.
Require Import Zrs.model.SeqNorm Zrs.proofs.C02_O1 Zrs.model.LitComp Zrs.proofs.C02_LitPart.
Open Scope Z_scope.

Section Closed.
  Variable norm : list sequence -> dist * dist * dist.
  Variable T : Type.
  Variable tnone : T.
  Variable litenc : T -> list Z -> list Z * list Z * T.
  Record cst2 := { c2_d : mgd; c2_ht : T }.

  Definition cblock2 (cs : cst2) (blk : list Z) : list Z * cst2 :=
    match mstep (c2_d cs) (OpBlock blk false) with
    | ROk (d', Some ms) =>
        let lits := mseqs_lits ms in
        let seqs := mseqs_seqs ms in
        let '(hdr, payload, o') := litenc (c2_ht cs) lits in
        let '(dl, do, dm) := norm seqs in
        match seq_part dl do dm seqs with
        | ROk sp => (hdr ++ payload ++ sp, {| c2_d := d'; c2_ht := o' |})
        | _ => ([], {| c2_d := d'; c2_ht := o' |})
        end
    | _ => ([], cs)
    end.
  Definition cskip2 (cs : cst2) (blk : list Z) : cst2 :=
    match mstep (c2_d cs) (OpBlock blk true) with
    | ROk (d', _) => {| c2_d := d'; c2_ht := c2_ht cs |}
    | _ => cs
    end.
  Definition cfallback2 (cs : cst2) : cst2 := {| c2_d := c2_d cs; c2_ht := tnone |}.
  Definition creset2 (cs : cst2) : cst2 := {| c2_d := mgd_reset (c2_d cs); c2_ht := tnone |}.

  Definition Cinit2 (cs : cst2) : Prop := DInv (c2_d cs) /\ 131072 <= Z.of_nat (max_window (c2_d cs)) < 2 ^ 31.
End Closed.

(** the literals part as a total function: where [literals_part] is not defined on bytes (the model's values are
    integers) or returns a panic value (the source's assertion that a compressed weight description stays below 128
    bytes), raw literals are written *)
Definition litenc_model (o : option codes_t) (lits : list Z) : list Z * list Z * option codes_t :=
  if forallb (fun s => (0 <=? s) && (s <=? 255)) lits then
    match literals_part o lits with
    | ROk r => r
    | _ => (raw_lit_header (zlen lits), lits, o)
    end
  else (raw_lit_header (zlen lits), lits, o).

Definition trel_model (o : option codes_t) (h : huf_table) : Prop := tab_rel o h /\ hinv h.

Lemma trel_model_none o h : trel_model o h -> trel_model None h.
Proof. intros (_ & B). split; [discriminate|exact B]. Qed.
Lemma trel_model_init : trel_model None huf_new.
Proof. split; [discriminate|reflexivity]. Qed.

Lemma litenc_model_meets_O2 : forall o lits h, trel_model o h -> zlen lits <= MAX_BLOCK_SIZE ->
  let '(hdr, payload, o') := litenc_model o lits in
  exists ht', lit_ok h lits hdr payload ht' /\ trel_model o' ht'.
Proof.
  intros o lits h (Hrel & Hinv) Hlen. unfold litenc_model.
  assert (Raw : exists ht', lit_ok h lits (raw_lit_header (zlen lits)) lits ht' /\ trel_model o ht')
    by (exists h; split; [apply raw_lit_ok; exact Hlen|split; assumption]).
  destruct (forallb (fun s => (0 <=? s) && (s <=? 255)) lits) eqn:Eb; [|exact Raw].
  destruct (literals_part o lits) as [[[hdr payload] o']|e|e] eqn:El; [|exact Raw|exact Raw].
  assert (Hbytes : Forall (fun s => 0 <= s <= 255) lits).
  { apply Forall_forall. intros s Hs. rewrite forallb_forall in Eb. specialize (Eb s Hs). lia. }
  destruct (literals_part_meets_O2 o lits h hdr payload o' Hrel Hinv Hbytes Hlen El) as (ht' & A & B & C).
  exists ht'. split; [exact A|split; assumption].
Qed.

(** level Fastest with nothing left as a parameter: the match finder model, the normaliser model, the literals part *)
Theorem fastest_roundtrip_closed slice wsize hash32 cs data script frame cs' r' :
  Cinit2 _ cs -> 1 <= Z.of_nat slice <= 131072 -> 1 <= wsize <= 2 ^ 27 ->
  (forall h x, hash32 = Some h -> length (h x) = 4%nat) ->
  compress_frame (cst2 (option codes_t)) (cblock2 norm_model _ litenc_model) (cskip2 _) (cfallback2 _ None) (creset2 _ None) LFastest slice wsize hash32 cs
    {| rd_data := data; rd_script := script |} = ROk (frame, cs', r') ->
  frame_decodes_to frame data hash32.
Proof.
  exact (any_encoder_roundtrip mgd builtin_run mgd_reset DInv retained max_window builtin_contract builtin_reset_spec
           norm_model norm_model_meets_O1 (option codes_t) None trel_model trel_model_none trel_model_init litenc_model litenc_model_meets_O2
           (cst2 _) (c2_d _) (c2_ht _) (Build_cst2 _) (fun _ _ => eq_refl) (fun _ _ => eq_refl)
           slice wsize hash32 cs data script frame cs' r').
Qed.
