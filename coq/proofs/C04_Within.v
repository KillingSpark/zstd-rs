(** C04: the unchecked copy-from-within never faults and appends exactly the requested bytes, for every chunk size. *)
From Coq Require Import Lia ZArith List.
Import ListNotations.
From Coq Require Import ZifyBool.
Require Import Zrs.lib.ListFacts Zrs.model.RingBuffer Zrs.proofs.C04_Basics Zrs.proofs.C04_Append.

Lemma inv_live_some s i : Inv s -> live s i -> i < cap s /\ exists b, mem s i = Some b.
Proof. intros (_ & _ & H). apply H. Qed.

(** One call of [copy_bytes_overshooting], in cells of the ring: the source run starts [a] places after the head,
    the destination run [b] places, the source lies before the destination, and the cells up to the end of what
    can be touched are initialised. *)
Lemma copy_cells k s m a sl b dl n src dst :
  1 <= k ->
  src + sl <= cap s -> (0 < sl -> src = idx s a) ->
  b + dl <= cap s -> dst + dl <= cap s -> (0 < dl -> dst = idx s b) ->
  n <= sl -> n <= dl -> a + Nat.min sl dl <= b ->
  (forall i, i < a + Nat.min sl dl -> exists v, m (idx s i) = Some v) ->
  exists m', copy_overshooting k m (cap s) (src, sl) (dst, dl) n = Some m' /\
             stored_at s m m' b dl n (fun j => m (idx s (a + j))).
Proof.
  intros Hk Hs Es Hb Hd Ed Hns Hnd Hab Hinit.
  pose proof (run_idx s a src sl Hs Es) as Rs.
  destruct (copy_over_ok k m (cap s) src sl dst dl n) as (m' & E & S); try assumption.
  - (* apart in the ring, so apart in memory *)
    destruct (Nat.eq_dec (Nat.min sl dl) 0) as [Z|NZ]; [lia|]. rewrite Es, Ed by lia. unfold idx.
    destruct (head s + a <? cap s) eqn:E1; destruct (head s + b <? cap s) eqn:E2; lia.
  - intros i Hi. rewrite <- Rs by lia. apply Hinit. lia.
  - exists m'. split; [exact E|].
    destruct (stored_idx s b dst dl m m' n _ Hb Hd Ed S Hnd) as [A B]. split; [|exact B].
    intros j Hj. rewrite A by exact Hj. rewrite Rs by lia. reflexivity.
Qed.

(** a first copy of [n1] cells, then, unless that was all, a second one of the rest *)
Lemma two_copies s start n n1 dl1 dl2 m1 o2 e :
  n1 <= n -> start + n <= len s -> len s + n < cap s ->
  stored_at s (mem s) m1 (len s) dl1 n1 (fun j => mem s (idx s (start + j))) ->
  (n1 < n -> exists m2, o2 = Some m2 /\
             stored_at s m1 m2 (len s + n1) dl2 (n - n1) (fun j => m1 (idx s (start + n1 + j)))) ->
  exists m', match (if n1 <? n then o2 else Some m1) with
             | None => Fault e
             | Some m' => Done (mkrb (cap s) (head s) ((tail s + n) mod cap s) m')
             end = Done (mkrb (cap s) (head s) ((tail s + n) mod cap s) m') /\
    (forall i, i < len s -> m' (idx s i) = mem s (idx s i)) /\
    (forall i, i < n -> m' (idx s (len s + i)) = mem s (idx s (start + i))).
Proof.
  intros H1 Hs Hn [A1 B1] H2. destruct (n1 <? n) eqn:E.
  - destruct H2 as (m2 & -> & A2 & B2); [lia|]. exists m2. split; [reflexivity|]. split.
    + intros i Hi. rewrite B2 by lia. apply B1; lia.
    + intros i Hi. destruct (Nat.lt_ge_cases i n1) as [L|L].
      * rewrite B2 by lia. apply A1. exact L.
      * replace (len s + i) with (len s + n1 + (i - n1)) by lia. rewrite A2 by lia. rewrite B1 by lia.
        do 2 f_equal. lia.
  - exists m1. split; [reflexivity|]. split; [intros i Hi; apply B1; lia|intros i Hi; apply A1; lia].
Qed.

(** Each of the three geometric cases of the Rust function makes one copy, and a second one when the destination
    (first case) or the source (third case) reaches the end of the allocation. *)
Lemma within_ok k s start n :
  Inv s -> 0 < cap s -> start + n <= len s -> n <= free s -> 1 <= k ->
  exists m', extend_from_within_unchecked k s start n
             = Done (mkrb (cap s) (head s) ((tail s + n) mod cap s) m') /\
    (forall i, i < len s -> m' (idx s i) = mem s (idx s i)) /\
    (forall i, i < n -> m' (idx s (len s + i)) = mem s (idx s (start + i))).
Proof.
  intros HI Hc Hsl Hfr Hk. destruct (inv_bounds s HI Hc) as [Hh Ht].
  pose proof (len_free s HI Hc) as LF. pose proof (idx_len s Hh Ht) as IL. pose proof (len_eq s) as LE.
  assert (forall i, i < len s -> exists v, mem s (idx s i) = Some v) as Init.
  { intros i Hi. rewrite inv_cell by assumption. eauto. }
  unfold extend_from_within_unchecked, advance_tail. replace (cap s =? 0) with false by lia.
  (* what is left of the preconditions and the invariant is arithmetic: keep it small for [lia] *)
  assert (len s + n < cap s) as Room by lia. clear HI Hc Hfr LF.
  destruct (head s <? tail s) eqn:Eht.
  - (* contiguous data: the destination runs to the end of the allocation, then from cell 0 to the head *)
    replace (head s <=? tail s) with true in LE by lia. remember (Nat.min n (cap s - tail s)) as n1 eqn:N1.
    assert (n1 <= n /\ n1 <= cap s - tail s /\ (n1 < n -> n1 = cap s - tail s)) as Hn1 by lia. clear N1.
    destruct (copy_cells k s (mem s) start (tail s - head s - start) (len s) (cap s - tail s) n1
                (head s + start) (tail s) Hk) as (m1 & E1 & S1); try lia.
    { intros _. symmetry. apply idx_lo. lia. }
    { intros i Hi. apply Init. lia. }
    rewrite E1. eapply (two_copies s start n n1 _ (head s) m1); [lia|lia|lia|exact S1|].
    intros En. cbn [fst snd]. apply copy_cells; try lia.
    + intros _. rewrite idx_lo by lia. lia.
    + intros _. rewrite idx_hi by lia. lia.
    + intros i Hi. destruct S1 as [_ B1]. rewrite B1 by lia. apply Init. lia.
  - destruct (cap s <? head s + start) eqn:Ewrap.
    + (* wrapped data, source in the lower part *)
      destruct (head s <=? tail s) eqn:C; [exfalso; lia|]. replace (cap s =? 0) with false by lia. cbv zeta.
      rewrite (mod_sub (cap s) (head s + start)) by lia. replace (head s + start <? cap s) with false by lia.
      destruct (copy_cells k s (mem s) start (tail s - (head s + start - cap s)) (len s) (head s - tail s) n
                  (head s + start - cap s) (tail s) Hk) as (m1 & E1 & [A1 B1]); try lia.
      { intros _. symmetry. apply idx_hi. lia. }
      { intros i Hi. apply Init. lia. }
      rewrite E1. eexists. split; [reflexivity|]. split; [intros i Hi; apply B1; lia|exact A1].
    + (* wrapped (or no) data, source starts in the upper part and may continue at cell 0 *)
      revert LE. destruct (head s <=? tail s) eqn:C; intros LE.
      { (* no data: nothing to copy, and the one call touches no cell *)
        assert (n = 0 /\ start = 0 /\ head s = tail s) as (-> & -> & Eq) by lia. cbn [Nat.min Nat.ltb Nat.leb].
        destruct (copy_over_ok k (mem s) (cap s) (head s + 0) (cap s - head s - 0) (tail s) (head s - tail s) 0 Hk)
          as (m1 & E1 & _); try lia.
        rewrite E1. exists m1. split; [reflexivity|]. split; intros i Hi; lia. }
      remember (Nat.min n (cap s - head s - start)) as n1 eqn:N1.
      assert (n1 <= n /\ n1 <= cap s - head s - start /\ (n1 < n -> n1 = cap s - head s - start)) as Hn1 by lia.
      clear N1.
      destruct (copy_cells k s (mem s) start (cap s - head s - start) (len s) (head s - tail s) n1
                  (head s + start) (tail s) Hk) as (m1 & E1 & S1); try lia.
      { intros Hp. symmetry. apply idx_lo. lia. }
      { intros i Hi. apply Init. lia. }
      rewrite E1. eapply (two_copies s start n n1 _ (head s - tail s - n1) m1); [lia|lia|lia|exact S1|].
      intros En. cbn [fst snd]. apply copy_cells; try lia.
      * intros _. rewrite idx_hi by lia. lia.
      * intros _. rewrite <- IL. symmetry. apply idx_run. lia.
      * intros i Hi. destruct S1 as [_ B1]. rewrite B1 by lia. apply Init. lia.
Qed.

Theorem within_refines k s start n :
  Inv s -> 0 < cap s -> start + n <= len s -> n <= free s -> 1 <= k ->
  exists s', extend_from_within_unchecked k s start n = Done s' /\ Inv s' /\
             cap s' = cap s /\ head s' = head s /\ len s' = len s + n /\
             abs s' = abs s ++ firstn n (skipn start (abs s)).
Proof.
  intros HI Hc Hsl Hfr Hk.
  destruct (within_ok k s start n HI Hc Hsl Hfr Hk) as (m' & E & A & B).
  eexists. split; [exact E|].
  destruct (append_lemma s n m' (firstn n (skipn start (abs s))) HI Hc Hfr) as (I' & L' & A'); [|exact A| |auto 6].
  - rewrite firstn_length, skipn_length, abs_length. lia.
  - intros i Hi. rewrite B by exact Hi. rewrite inv_cell by (assumption || lia).
    rewrite nth_firstn_lt by exact Hi. rewrite nth_skipn_add. reflexivity.
Qed.
