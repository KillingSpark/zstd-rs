(** C09 / C01: the match copy of the decode buffer.  [lz_copy] is the textbook LZ77 copy (one byte at a time, each
    equal to the byte [off] positions back).  Proved here:
    - the chunked copy [repeat_in_chunks] (model: [lz_copy_fast]) equals [lz_copy] for every length and offset;
    - [DecodeBuffer::repeat] with a dictionary is the plain LZ77 copy on the history "dictionary content followed by
      the output so far" (so dictionary content behaves exactly like earlier output), for every alignment of the match
      with the dictionary/output boundary;
    - offsets beyond dictionary plus output are rejected, and the dictionary is out of reach once the output has
      passed the window. *)
Require Import Zrs.lib.RsPrelude Zrs.lib.ResFacts Zrs.lib.ListFacts Zrs.gen.Generated Zrs.model.BlockDec.
Require Import Zrs.proofs.C06_Drain Zrs.proofs.C05_Block.

Lemma lz_copy_length n : forall off r, length (lz_copy n off r) = (length r + n)%nat.
Proof. induction n as [|k IH]; intros off r; cbn [lz_copy]; [lia|]. rewrite IH. cbn [length]. lia. Qed.

Lemma lz_copy_add a : forall b off r, lz_copy (a + b) off r = lz_copy b off (lz_copy a off r).
Proof. induction a as [|a IH]; intros b off r; [reflexivity|]. cbn [Nat.add lz_copy]. apply IH. Qed.

(** a copy no longer than the offset is a plain slice of the history *)
Lemma lz_copy_short_gen c : forall off pre r, (length pre + c <= off)%nat -> (off <= length pre + length r)%nat ->
  lz_copy c off (pre ++ r) = firstn c (skipn (off - length pre - c) r) ++ pre ++ r.
Proof.
  induction c as [|k IH]; intros off pre r H1 H2; [reflexivity|].
  cbn [lz_copy].
  assert (Hn : nth (off - 1) (pre ++ r) 0 = nth (off - 1 - length pre) r 0) by (rewrite app_nth2; [reflexivity|lia]).
  rewrite Hn.
  change (nth (off - 1 - length pre) r 0 :: pre ++ r) with ((nth (off - 1 - length pre) r 0 :: pre) ++ r).
  rewrite IH by (cbn [length]; lia). cbn [length].
  set (m := (off - length pre - S k)%nat).
  replace (off - S (length pre) - k)%nat with m by lia.
  rewrite (firstn_S_nth 0 k (skipn m r)) by (rewrite skipn_length; lia).
  rewrite nth_skipn_add. replace (m + k)%nat with (off - 1 - length pre)%nat by lia.
  rewrite <- app_assoc. reflexivity.
Qed.

Lemma lz_copy_short c off r : (c <= off)%nat -> (off <= length r)%nat ->
  lz_copy c off r = firstn c (skipn (off - c) r) ++ r.
Proof.
  intros H1 H2. pose proof (lz_copy_short_gen c off [] r) as H. cbn [length app Nat.add] in H.
  rewrite H by lia. f_equal. f_equal. f_equal. lia.
Qed.

(** the history behind the reach of the offset does not matter *)
Lemma lz_copy_app n : forall off r d, (1 <= off)%nat -> (off <= length r)%nat ->
  lz_copy n off (r ++ d) = lz_copy n off r ++ d.
Proof.
  induction n as [|k IH]; intros off r d H1 H2; [reflexivity|].
  cbn [lz_copy]. rewrite app_nth1 by lia.
  change (nth (off - 1) r 0 :: r ++ d) with ((nth (off - 1) r 0 :: r) ++ d).
  apply IH; cbn [length]; lia.
Qed.

Theorem lz_copy_chunks_eq fuel : forall n off r, (n <= fuel)%nat -> (1 <= off)%nat -> (off <= length r)%nat ->
  lz_copy_chunks fuel n off r = lz_copy n off r.
Proof.
  induction fuel as [|f IH]; intros n off r Hn Ho Hl.
  - assert (n = 0)%nat by lia. subst. reflexivity.
  - cbn [lz_copy_chunks]. destruct n as [|n']; [reflexivity|].
    destruct (Nat.min off (S n')) as [|c'] eqn:Ec; [lia|].
    set (c := S c') in *.
    rewrite <- (lz_copy_short c off r) by lia.
    rewrite IH; try lia.
    + replace (S n') with (c + (S n' - c))%nat at 2 by lia. rewrite lz_copy_add. reflexivity.
    + rewrite lz_copy_length. lia.
Qed.

Corollary lz_copy_fast_eq n off r : (1 <= off)%nat -> (off <= length r)%nat -> lz_copy_fast n off r = lz_copy n off r.
Proof. intros. unfold lz_copy_fast. apply lz_copy_chunks_eq; lia. Qed.

(** a copy that lies within the dictionary: [r] is the output so far, the offset reaches [bf] bytes into [dict] *)
Lemma lz_copy_from_dict c bf r dict : (c <= bf <= length dict)%nat ->
  lz_copy c (length r + bf) (r ++ rev dict) = rev (firstn c (skipn (length dict - bf) dict)) ++ r ++ rev dict.
Proof.
  intros H. rewrite lz_copy_short by (rewrite ?app_length, ?rev_length; lia). f_equal.
  rewrite skipn_app, skipn_all2 by lia. cbn [app].
  rewrite skipn_rev, firstn_rev, firstn_length, skipn_firstn_comm. f_equal.
  f_equal; [|f_equal]; lia.
Qed.

Theorem db_repeat_spec b off ml b' : db_wf b -> 1 <= off -> 0 <= ml ->
  db_repeat b off ml = ROk b' ->
  off <= db_len b + zlen (db_dict b) /\
  db_rev b' ++ rev (db_dict b) = lz_copy (Z.to_nat ml) (Z.to_nat off) (db_rev b ++ rev (db_dict b)) /\
  db_dict b' = db_dict b.
Proof.
  intros W Ho Hm H. unfold db_repeat in H. unfold db_wf in W. unfold zlen.
  destruct (db_len b <? off) eqn:Efar.
  - destruct (db_total_out b <=? db_window b); [|discriminate].
    destruct (_ <? off - db_len b) eqn:Edl in H; [discriminate|].
    set (dict := db_dict b) in *. set (r := db_rev b) in *. set (bf := Z.to_nat (off - db_len b)).
    assert (Z.to_nat off = (length r + bf)%nat /\ (1 <= bf <= length dict)%nat) as [-> HBF] by lia.
    replace (Z.to_nat (Z.of_nat (length dict) - (off - db_len b))) with (length dict - bf)%nat in H by lia.
    destruct (off - db_len b <? ml) eqn:Esplit.
    + (* the match starts in the dictionary and runs into the output *)
      destruct (_ =? 0) in H; [discriminate|]. injection H as <-.
      cbn [db_rev db_dict db_len db_add_total db_set_rev db_append_raw]. fold dict r.
      split; [lia|]. split; [|reflexivity].
      set (slice := skipn (length dict - bf) dict).
      assert (length slice = bf) as Ls by (unfold slice; rewrite skipn_length; lia).
      rewrite rev_append_rev.
      rewrite lz_copy_fast_eq by (rewrite ?app_length, ?rev_length; lia).
      replace (Z.to_nat (db_len b + Z.of_nat (length slice))) with (length r + bf)%nat by lia.
      replace (Z.to_nat ml) with (bf + Z.to_nat (ml - (off - db_len b)))%nat by lia.
      rewrite lz_copy_add, (lz_copy_from_dict bf bf) by lia. fold slice. rewrite (firstn_all2 slice) by lia.
      rewrite app_assoc, (lz_copy_app _ _ (rev slice ++ r)) by (rewrite ?app_length, ?rev_length; lia). reflexivity.
    + (* the whole match lies in the dictionary *)
      injection H as <-. cbn [db_rev db_dict db_append_raw]. fold dict r. split; [lia|]. split; [|reflexivity].
      rewrite rev_append_rev, lz_copy_from_dict by lia. symmetry. apply app_assoc.
  - destruct ((off =? 0) && (0 <? ml)) eqn:E0; [lia|].
    injection H as <-. cbn [db_rev db_dict db_add_total db_set_rev]. split; [lia|]. split; [|reflexivity].
    rewrite lz_copy_fast_eq by lia. rewrite lz_copy_app by lia. reflexivity.
Qed.

Theorem db_repeat_rejects_far b off ml : db_wf b -> db_len b + zlen (db_dict b) < off ->
  exists e, db_repeat b off ml = RErr e.
Proof.
  intros W H. unfold db_repeat, zlen in *.
  destruct (db_len b <? off) eqn:E; [|lia].
  destruct (db_total_out b <=? db_window b); [|eexists; reflexivity].
  destruct (Z.of_nat (length (db_dict b)) <? off - db_len b) eqn:E2; [eexists; reflexivity|lia].
Qed.

Theorem db_repeat_dict_out_of_window b off ml : db_window b < db_total_out b -> db_len b < off ->
  db_repeat b off ml = RErr "OffsetTooBig".
Proof.
  intros H1 H2. unfold db_repeat.
  destruct (db_len b <? off) eqn:E; [|lia]. destruct (db_total_out b <=? db_window b) eqn:E2; [lia|reflexivity].
Qed.

Corollary db_repeat_no_dict b off ml : db_wf b -> db_dict b = [] -> db_len b < off -> exists e, db_repeat b off ml = RErr e.
Proof. intros W D H. apply db_repeat_rejects_far; [exact W|]. rewrite D. cbn. lia. Qed.

(** two buffers in a relation that pushes and match copies preserve run through [exec_loop] in lockstep *)
Section Lockstep.
  Variable R : dbuf -> dbuf -> Prop.
  Hypothesis R_push : forall b f a, R b f -> R (db_push b a) (db_push f a).
  Hypothesis R_repeat : forall b f off ml b', R b f -> 1 <= off -> 0 <= ml ->
    db_repeat b off ml = ROk b' -> exists f', db_repeat f off ml = ROk f' /\ R b' f'.

  Lemma exec_loop_lockstep seqs : forall lits buf f hist ssum buf' hist' rest ssum',
    hist_ok hist -> Forall seq_ok seqs -> R buf f ->
    exec_loop seqs lits buf hist ssum = ROk (buf', hist', rest, ssum') ->
    exists f', exec_loop seqs lits f hist ssum = ROk (f', hist', rest, ssum') /\ R buf' f'.
  Proof.
    induction seqs as [|sq t IH]; intros lits buf f hist ssum buf' hist' rest ssum' Hh Hs HR H.
    - injection H as <- <- <- <-. exists f. split; [reflexivity|exact HR].
    - inversion Hs as [|? ? (Hll & Hml & Hof) Hs']; subst.
      destruct (offhist_ok _ (sq_ll sq) _ Hof Hh) as [Ha Hh1].
      rewrite exec_loop_cons in H |- *. cbv zeta in *.
      destruct (MAX_BLOCK_SIZE <? _); [discriminate|]. destruct (length lits <? _)%nat; [discriminate|].
      destruct (do_offset_history _ _ hist) as [off hist1]. cbn [fst snd] in *.
      destruct (off =? 0) eqn:Eo; [discriminate|]. bind_inv H. rename a into buf2.
      assert (exists f2, exec_match (db_push f (firstn (Z.to_nat (sq_ll sq)) lits)) off (sq_ml sq) = ROk f2 /\ R buf2 f2)
        as (f2 & -> & R2).
      { unfold exec_match in *. destruct (0 <? sq_ml sq).
        - eapply R_repeat; [apply R_push, HR|lia|exact Hml|exact E].
        - injection E as <-. eauto. }
      cbn [rbind]. destruct (2 ^ 32 <=? _); [discriminate|]. eapply IH; eassumption.
  Qed.
End Lockstep.

(** Sequence execution with a dictionary is sequence execution on a buffer whose earlier output is the dictionary
    content.  [flat_of b f]: [f] has no dictionary, and holds dictionary content followed by [b]'s contents. *)
Definition flat_of (b f : dbuf) : Prop :=
  db_rev f = db_rev b ++ rev (db_dict b) /\ db_len f = db_len b + zlen (db_dict b) /\ db_dict f = [].

Lemma flat_wf b f : db_wf b -> flat_of b f -> db_wf f.
Proof. intros W (R & L & _). unfold db_wf, zlen in *. rewrite R, L, app_length, rev_length. lia. Qed.

(** [flat_push] and [flat_repeat] have the shape of the hypotheses of [Lockstep], for the relation
    [fun b f => db_wf b /\ flat_of b f] *)
Lemma flat_push b f a : db_wf b /\ flat_of b f -> db_wf (db_push b a) /\ flat_of (db_push b a) (db_push f a).
Proof.
  intros (W & R & L & D). split; [apply push_inv, W|].
  unfold flat_of, db_push, db_add_total, db_append_raw, zlen in *. cbn.
  rewrite !rev_append_rev, R, L, D, <- app_assoc. repeat split. lia.
Qed.

Lemma flat_repeat b f off ml b' : db_wf b /\ flat_of b f -> 1 <= off -> 0 <= ml ->
  db_repeat b off ml = ROk b' -> exists f', db_repeat f off ml = ROk f' /\ db_wf b' /\ flat_of b' f'.
Proof.
  intros (W & F) Ho Hm H. pose proof (flat_wf _ _ W F) as Wf. destruct F as (R & L & D).
  destruct (db_repeat_spec _ _ _ _ W Ho Hm H) as (Hreach & Hrev & Hd).
  assert (0 <= off) as Ho0 by lia. destruct (db_repeat_inv _ _ _ _ W Hm Ho0 H) as (W' & Hlen & _).
  unfold db_repeat. destruct (db_len f <? off) eqn:E; [lia|].
  destruct ((off =? 0) && (0 <? ml)) eqn:E0; [lia|].
  eexists. split; [reflexivity|]. split; [exact W'|].
  unfold flat_of. cbn [db_rev db_len db_dict db_add_total db_set_rev]. unfold db_wf in Wf.
  rewrite lz_copy_fast_eq by lia. rewrite R, <- Hrev, Hd, Hlen, L, D. repeat split. lia.
Qed.

Theorem exec_loop_dict_is_history seqs : forall lits buf flat hist ssum buf' hist' rest ssum',
  db_wf buf -> hist_ok hist -> Forall seq_ok seqs -> flat_of buf flat ->
  exec_loop seqs lits buf hist ssum = ROk (buf', hist', rest, ssum') ->
  exists flat', exec_loop seqs lits flat hist ssum = ROk (flat', hist', rest, ssum') /\ flat_of buf' flat'.
Proof.
  intros lits buf flat hist ssum buf' hist' rest ssum' W Hh Hs F H.
  destruct (exec_loop_lockstep _ flat_push flat_repeat _ _ _ _ _ _ _ _ _ _ Hh Hs (conj W F) H) as (f' & E & _ & F').
  eauto.
Qed.
