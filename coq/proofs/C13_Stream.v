(** C13: the Huffman-coded literal stream.  The compressor writes the codes of the symbols last symbol first
    (HuffmanEncoder::encode_stream), so that the decoder, reading from the end, meets the first symbol's code first; the
    decoder keeps a window of [max_bits] bits as its state, looks the symbol up, and shifts in as many new bits as
    the code was long, reading zeros past the beginning of the stream.  Theorem: for every symbol list and every
    decoding table that resolves each used code from any window starting with it (a decidable property; every table the
    decoder builds has it for the code words read off it, C13_code_words_of_every_table_resolve), [huf_decode_stream] returns exactly the symbols and
    ends with the end-of-stream check satisfied. *)
Require Import Zrs.lib.RsPrelude Zrs.proofs.ModelFacts Zrs.lib.ListFacts Zrs.lib.Bits Zrs.model.BitIO Zrs.model.BitStream Zrs.model.HufDec.
Require Import Zrs.proofs.C12_Stream.
Open Scope Z_scope.

Lemma msb_acc_linear l : forall acc, bits_val_msb_acc acc l = acc * 2 ^ Z.of_nat (length l) + bits_val_msb l.
Proof.
  unfold bits_val_msb. induction l as [|b t IH]; intros acc; cbn [bits_val_msb_acc length]; [cbn; lia|].
  rewrite IH, (IH (2 * 0 + b2z b)). rewrite Nat2Z.inj_succ, Z.pow_succ_r by lia. lia.
Qed.

Lemma msb_app a b : bits_val_msb (a ++ b) = bits_val_msb a * 2 ^ Z.of_nat (length b) + bits_val_msb b.
Proof. unfold bits_val_msb at 1. rewrite bits_val_msb_acc_app. fold (bits_val_msb a). apply msb_acc_linear. Qed.

Lemma msb_bound l : 0 <= bits_val_msb l < 2 ^ Z.of_nat (length l).
Proof.
  induction l as [|b l IH] using rev_ind; [cbn; lia|].
  rewrite msb_app, app_length. cbn [length]. rewrite Nat2Z.inj_add, Z.pow_add_r by lia.
  assert (Hb : bits_val_msb [b] = b2z b) by (unfold bits_val_msb; cbn [bits_val_msb_acc]; lia).
  rewrite Hb. change (2 ^ Z.of_nat 1) with 2. remember (2 ^ Z.of_nat (length l)) as p. unfold b2z. destruct b; lia.
Qed.

Lemma msb_zeros n : bits_val_msb (repeat false n) = 0.
Proof. induction n as [|n IH]; [reflexivity|]. change (repeat false (S n)) with ([false] ++ repeat false n). rewrite msb_app, IH. cbn. lia. Qed.

Lemma firstn_repeat_false m z : firstn m (repeat false z) = repeat false (Nat.min m z).
Proof. revert z. induction m as [|m IH]; intros z; [reflexivity|]. destruct z as [|z]; [reflexivity|]. cbn [repeat firstn Nat.min]. rewrite IH. reflexivity. Qed.

Lemma skipn_repeat_false m z : skipn m (repeat false z) = repeat false (z - m).
Proof. revert z. induction m as [|m IH]; intros z; [rewrite Nat.sub_0_r; reflexivity|]. destruct z as [|z]; [reflexivity|]. cbn [repeat skipn Nat.sub]. apply IH. Qed.

Section Virtual.
  Variable R : list bit.            (* the real stream, in reading order *)
  Variable Z0 : nat.                (* how many zeros of the virtual stream we ever look at *)
  Definition V : list bit := R ++ repeat false Z0.
  Definition reader_at (k : nat) : rbr :=
    {| r_rest := skipn k R; r_left := Z.of_nat (length R - k); r_extra := Z.of_nat (k - length R) |}.

  Lemma reader_at_remaining k : rbr_bits_remaining (reader_at k) = Z.of_nat (length R) - Z.of_nat k.
  Proof. unfold rbr_bits_remaining, reader_at. cbn [r_left r_extra]. lia. Qed.

  Lemma get_bits_virtual k n : (k + n <= length R + Z0)%nat ->
    rbr_get_bits (reader_at k) (Z.of_nat n) = (bits_val_msb (firstn n (skipn k V)), reader_at (k + n)).
  Proof.
    intros Hb. unfold rbr_get_bits, reader_at. cbn [r_rest r_left r_extra].
    destruct (Z.leb_spec (Z.of_nat n) 0) as [H0|Hpos].
    - assert (n = 0%nat) by lia. subst n. cbn [firstn]. rewrite Nat.add_0_r. reflexivity.
    - destruct (Z.leb_spec (Z.of_nat n) (Z.of_nat (length R - k))) as [Hin|Hout].
      + rewrite Nat2Z.id. f_equal.
        * f_equal. unfold V. rewrite skipn_app, firstn_app, skipn_length.
          replace (n - (length R - k))%nat with 0%nat by lia. cbn [firstn]. rewrite app_nil_r. reflexivity.
        * f_equal; [apply skipn_add|lia|lia].
      + f_equal.
        * unfold V. rewrite skipn_app, firstn_app, skipn_length.
          rewrite (firstn_all2 (n := n)) by (rewrite skipn_length; lia).
          rewrite msb_app.
          rewrite skipn_repeat_false, firstn_repeat_false, msb_zeros, repeat_length. rewrite Z.add_0_r. f_equal. f_equal. lia.
        * f_equal; [symmetry; apply skipn_all2; lia|lia|lia].
  Qed.
End Virtual.

Section Decode.
  Variable t : huf_table.
  Variable Mn : nat.
  Hypothesis HM : ht_max_bits t = Z.of_nat Mn.
  Hypothesis HM1 : (1 <= Mn)%nat.
  Hypothesis Hlen : ht_len t = 2 ^ Z.of_nat Mn.
  Variable code : Z -> Z * nat.          (* the compressor's (code, number of bits) of a symbol *)

  Definition cw (s : Z) : list bit := rev (byte_bits_lsb (snd (code s)) (fst (code s))).
  Definition code_ok (s : Z) : Prop := (1 <= snd (code s) <= Mn)%nat /\ 0 <= fst (code s) < 2 ^ Z.of_nat (snd (code s)).
  Definition resolves (s : Z) : Prop :=
    forall w, length w = Mn -> firstn (snd (code s)) w = cw s ->
      nth_h (ht_decode t) (bits_val_msb w) = {| h_sym := s; h_bits := Z.of_nat (snd (code s)) |}.

  Lemma cw_length s : length (cw s) = snd (code s).
  Proof. unfold cw. rewrite rev_length, byte_bits_lsb_length. reflexivity. Qed.

  Lemma slide (a b c : list bit) : (length a + length b = Mn)%nat -> length c = length a ->
    Z.lor (Z.land (bits_val_msb (a ++ b) * 2 ^ Z.of_nat (length a)) (2 ^ Z.of_nat Mn - 1)) (bits_val_msb c)
    = bits_val_msb (b ++ c).
  Proof.
    intros Hab Hc. rewrite land_ones_mod by lia. rewrite !msb_app.
    pose proof (msb_bound a) as Ba. pose proof (msb_bound b) as Bb. pose proof (msb_bound c) as Bc.
    rewrite Hc in *.
    assert (HMn : Z.of_nat Mn = Z.of_nat (length a) + Z.of_nat (length b)) by lia.
    assert (E : (bits_val_msb a * 2 ^ Z.of_nat (length b) + bits_val_msb b) * 2 ^ Z.of_nat (length a)
                = bits_val_msb b * 2 ^ Z.of_nat (length a) + bits_val_msb a * 2 ^ Z.of_nat Mn).
    { rewrite HMn, Z.pow_add_r by lia. ring. }
    rewrite E, Z.mod_add by (apply Z.pow_nonzero; lia).
    rewrite Z.mod_small.
    - rewrite Z.lor_comm. rewrite lor_low_shifted by lia. lia.
    - rewrite HMn, Z.pow_add_r by lia. split; [apply Z.mul_nonneg_nonneg; lia|].
      rewrite (Z.mul_comm (2 ^ Z.of_nat (length a))). apply Z.mul_lt_mono_pos_r; [apply Z.pow_pos_nonneg; lia|lia].
  Qed.

  (** The state is the window on the first [Mn] bits of the virtual stream [r ++ zeros], the reader stands
      behind the window; a table entry of [l] bits moves both [l] bits on. *)
  Lemma window_step r Z0 l : (1 <= l <= Mn)%nat -> (l <= length r)%nat -> (Mn <= Z0)%nat ->
    h_bits (nth_h (ht_decode t) (bits_val_msb (firstn Mn (V r Z0)))) = Z.of_nat l ->
    huf_next_state t (bits_val_msb (firstn Mn (V r Z0))) (reader_at r Mn)
    = ROk (bits_val_msb (firstn Mn (V (skipn l r) Z0)), reader_at (skipn l r) Mn).
  Proof.
    intros Hl Hr HZ Hb. set (X := V r Z0) in *. set (w := firstn Mn X) in *.
    assert (LX : length X = (length r + Z0)%nat) by (unfold X, V; rewrite app_length, repeat_length; reflexivity).
    assert (Lw : length w = Mn) by (unfold w; rewrite firstn_length; lia).
    pose proof (msb_bound w) as Bw. rewrite Lw in Bw.
    unfold huf_next_state. rewrite Hlen, Hb. destruct (Z.leb_spec (2 ^ Z.of_nat Mn) (bits_val_msb w)) as [|_]; [lia|].
    rewrite (get_bits_virtual r Z0 Mn l) by lia. fold X.
    assert (EV : V (skipn l r) Z0 = skipn l X) by (unfold X, V; rewrite skipn_app; replace (l - length r)%nat with 0%nat by lia; reflexivity).
    assert (Enext : firstn Mn (skipn l X) = skipn l w ++ firstn l (skipn Mn X)).
    { unfold w. replace Mn with ((Mn - l) + l)%nat at 1 by lia. rewrite firstn_split, skipn_firstn_comm, skipn_add. do 3 f_equal. lia. }
    rewrite EV, Enext. f_equal. f_equal.
    - rewrite <- (firstn_skipn l w) at 1. replace (Z.of_nat l) with (Z.of_nat (length (firstn l w))) by (rewrite firstn_length; lia).
      apply slide; rewrite !firstn_length, ?skipn_length; lia.
    - unfold reader_at. rewrite skipn_add, skipn_length. f_equal; [f_equal|..]; lia.
  Qed.

  Lemma stream_loop_reads todo : forall out fuel Z0,
    Forall code_ok todo -> Forall resolves todo -> (Mn <= Z0)%nat -> (length todo < fuel)%nat ->
    let r := flat_map cw todo in
    huf_stream_loop fuel t (bits_val_msb (firstn Mn (V r Z0))) (reader_at r Mn) out = ROk (rev todo ++ out, reader_at [] Mn).
  Proof.
    induction todo as [|s rest IH]; intros out fuel Z0 Hok Hres HZ Hf; (destruct fuel as [|f]; [cbn in Hf; lia|]);
      cbn [huf_stream_loop flat_map]; rewrite reader_at_remaining, HM.
    - destruct (Z.ltb_spec (- Z.of_nat Mn) (Z.of_nat (@length bit []) - Z.of_nat Mn)) as [H|_]; [cbn [length] in H; lia|]. reflexivity.
    - inversion Hok as [|? ? (Hl & Hc) Hok']; subst. inversion Hres as [|? ? Hr Hres']; subst.
      set (r := flat_map cw rest). set (w := firstn Mn (V (cw s ++ r) Z0)).
      assert (Lw : length w = Mn) by (unfold w, V; rewrite firstn_length, !app_length, repeat_length; lia).
      assert (Hw : firstn (snd (code s)) w = cw s).
      { unfold w, V. rewrite firstn_firstn, Nat.min_l, <- app_assoc, <- (cw_length s) by lia. apply (proj2 (split_at_length _ _)). }
      destruct (Z.ltb_spec (- Z.of_nat Mn) (Z.of_nat (length (cw s ++ r)) - Z.of_nat Mn)) as [_|H]; [|rewrite app_length, cw_length in H; lia].
      pose proof (msb_bound w) as Bw. rewrite Lw in Bw. unfold huf_decode_symbol. rewrite Hlen.
      destruct (Z.leb_spec (2 ^ Z.of_nat Mn) (bits_val_msb w)) as [|_]; [lia|]. cbn [rbind].
      pose proof (Hr w Lw Hw) as E. rewrite E. cbn [rbind h_sym]. unfold w in *.
      rewrite (window_step (cw s ++ r) Z0 (snd (code s))) by (rewrite ?E, ?app_length, ?cw_length; cbn [h_bits]; lia). cbn [rbind]. rewrite <- (cw_length s) at 1 2. rewrite (proj1 (split_at_length _ _)).
      subst r. rewrite (IH (s :: out) f Z0 Hok' Hres' HZ ltac:(cbn [length] in Hf; lia)). cbn [rev]. rewrite <- app_assoc. reflexivity.
  Qed.
End Decode.

Lemma flat_map_map {A B C} (f : B -> list C) (g : A -> B) (l : list A) : flat_map f (map g l) = flat_map (fun x => f (g x)) l.
Proof. induction l as [|x t0 IH]; [reflexivity|]. cbn [map flat_map]. rewrite IH. reflexivity. Qed.

Lemma stream_len fs : Z.of_nat (length (stream_bits fs)) = 8 * Z.of_nat (length (stream_bytes fs)).
Proof. pose proof (f_equal r_left (reader_of_stream fs)) as H. unfold rbr_new, rd in H. cbn [r_left] in H. rewrite rev_length in H. lia. Qed.

Section Whole.
  Variable t : huf_table.
  Variable Mn : nat.
  Hypothesis HM : ht_max_bits t = Z.of_nat Mn.
  Hypothesis HM1 : (1 <= Mn)%nat.
  Hypothesis Hlen : ht_len t = 2 ^ Z.of_nat Mn.
  Variable code : Z -> Z * nat.

  (** what [encode_stream] writes for [data]: the codes, last symbol first, then the 1 bit and the padding *)
  Definition huf_stream_bytes (data : list Z) : list Z := stream_bytes (map code (rev data)).

  Lemma reading_order data : rev (fields_bits (map code (rev data))) = flat_map (cw code) data.
  Proof.
    unfold fields_bits. rewrite flat_map_map.
    rewrite <- (flat_map_rev (fun x => byte_bits_lsb (snd (code x)) (fst (code x))) (rev data)).
    rewrite rev_involutive. reflexivity.
  Qed.

  Lemma cw_total data : Forall (code_ok Mn code) data -> (length data <= length (flat_map (cw code) data))%nat.
  Proof.
    induction data as [|s rest IH]; intros H; [cbn; lia|]. inversion H as [|? ? (Hl & _) H']; subst.
    cbn [flat_map length]. rewrite app_length, cw_length. specialize (IH H'). lia.
  Qed.

  Theorem huffman_stream_roundtrip data out : data <> [] ->
    Forall (code_ok Mn code) data -> Forall (resolves t Mn code) data ->
    huf_decode_stream t (huf_stream_bytes data) out true = ROk (rev data ++ out).
  Proof.
    intros Hne Hok Hres. unfold huf_decode_stream, huf_stream_bytes.
    set (fs := map code (rev data)).
    set (R := flat_map (cw code) data).
    assert (HR : rev (fields_bits fs) = R) by apply reading_order.
    rewrite padding_skipped, HR.
    assert (Hrd : rd R = reader_at R 0).
    { unfold rd, reader_at. cbn [skipn]. f_equal; lia. }
    rewrite Hrd. unfold huf_init_state. rewrite HM.
    rewrite (get_bits_virtual R Mn 0 Mn) by lia. cbn [skipn Nat.add].
    pose proof (stream_loop_reads t Mn HM HM1 Hlen code data out (S (8 * length (stream_bytes fs) + 16)) Mn Hok Hres (le_n _)) as L.
    fold R in L. rewrite L.
    - cbn [rbind]. rewrite reader_at_remaining. cbn [length]. rewrite Z.eqb_refl. reflexivity.
    - pose proof (cw_total data Hok) as Hc. fold R in Hc.
      pose proof (stream_len fs) as Hs. unfold stream_bits in Hs. rewrite app_length in Hs.
      assert (length R = length (fields_bits fs)) by (rewrite <- HR, rev_length; reflexivity). lia.
  Qed.
End Whole.
