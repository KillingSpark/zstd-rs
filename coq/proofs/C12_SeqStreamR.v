(** C12 / C16 / C01 / C14: the sequences bit stream.  The compressor writes, backwards, for each sequence the three
    state transitions and the three extra-bit fields, and finally the three start states ([encode_sequences] in
    encoding/blocks/compressed.rs); the decoder reads the stream from the end ([seq_loop]).  Each of the three tables
    is either an FSE table, with an encoder table that AGREES with it (C12_SeqStream.v), or in RLE mode: an RLE table
    contributes no bits at all -- neither a start state nor transitions -- and its code is the RLE byte; the writer is
    the same [enc_fields] with the degenerate encoder table [E_rle] (every field it emits has width zero).  Theorem: the
    decoder model returns exactly the sequences that were written, consuming the stream exactly. *)
Require Import Zrs.lib.RsPrelude Zrs.gen.Generated Zrs.model.BitIO Zrs.model.FseDec Zrs.model.BlockDec.
Require Import Zrs.model.BitStream Zrs.model.SeqEnc Zrs.proofs.C12_Stream Zrs.proofs.C12_SeqStream.
Open Scope Z_scope.

Definition E_rle : enc_table := {| et_start := fun _ => es0; et_next := fun _ _ => es0; et_log := 0 |}.

Definition tagree (D : fse_table) (rle : option Z) (E : enc_table) (syms : list Z) : Prop :=
  match rle with None => agree D E syms | Some c => E = E_rle /\ syms = [c] end.

Definition scr (Dll : fse_table) (rll : option Z) (Dml : fse_table) (rml : option Z) (Dof : fse_table) (rof : option Z) : fse_scratch :=
  {| fs_of := Dof; fs_of_rle := rof; fs_ll := Dll; fs_ll_rle := rll; fs_ml := Dml; fs_ml_rle := rml |}.

(** what [decode_sequences] and [seq_loop] do with one table: the first state, a transition *)
Definition start_of (D : fse_table) (rle : option Z) (br : rbr) : res (fse_entry * rbr) :=
  match rle with None => fse_init_state D br | Some _ => ROk (fse_dec_new D, br) end.
Definition step_of (D : fse_table) (rle : option Z) (st : fse_entry) (br : rbr) : res (fse_entry * rbr) :=
  match rle with None => fse_update_state D st br | Some _ => ROk (st, br) end.

(** the decoder's state when the writer is in the state of index [idx]; the indices that occur *)
Definition stx (D : fse_table) (rle : option Z) (idx : Z) : fse_entry :=
  match rle with None => nth_e (t_decode D) idx | Some _ => fse_dec_new D end.
Definition idx_ok (D : fse_table) (rle : option Z) (i : Z) : Prop :=
  match rle with None => 0 <= i < t_len D | Some _ => i = 0 end.
(** the writer's states for the symbol [sym] *)
Definition wstate (D : fse_table) (rle : option Z) (sym : Z) (cur : enc_state) : Prop :=
  match rle with None => entry_is D sym cur | Some c => sym = c /\ cur = es0 end.

Lemma zero_field A v : fields_bits (A ++ [(v, 0%nat)]) = fields_bits A.
Proof. rewrite fields_bits_snoc. apply app_nil_r. Qed.

Lemma wstate_idx D rle sym cur : wstate D rle sym cur -> idx_ok D rle (es_index cur).
Proof. destruct rle; cbn [wstate idx_ok]; [intros (_ & ->); reflexivity|intros (H & _); exact H]. Qed.

Lemma wstate_code D rle sym cur : wstate D rle sym cur -> code_of rle (stx D rle (es_index cur)) = sym.
Proof. destruct rle; cbn [wstate code_of stx]; [intros (-> & _)|intros (_ & ->)]; reflexivity. Qed.

Section Table.
  Variables (D : fse_table) (rle : option Z) (E : enc_table) (syms : list Z).
  Hypothesis Hag : tagree D rle E syms.

  Lemma start_state sym : In sym syms -> wstate D rle sym (et_start E sym).
  Proof.
    intros Hin. destruct rle as [c|]; cbn [tagree wstate] in *.
    - destruct Hag as (-> & ->). destruct Hin as [<-|[]]. split; reflexivity.
    - destruct Hag as (_ & _ & G). exact (proj1 (G sym Hin)).
  Qed.

  Lemma next_state sym target : In sym syms -> idx_ok D rle target -> wstate D rle sym (et_next E sym target).
  Proof.
    intros Hin Hidx. destruct rle as [c|]; cbn [tagree wstate idx_ok] in *.
    - destruct Hag as (-> & ->). destruct Hin as [<-|[]]. split; reflexivity.
    - destruct Hag as (_ & _ & G). exact (proj1 (proj2 (G sym Hin) target Hidx)).
  Qed.

  Lemma start_reads idx A : idx_ok D rle idx ->
    start_of D rle (rd (rev (fields_bits (A ++ [(idx, et_log E)])))) = ROk (stx D rle idx, rd (rev (fields_bits A))).
  Proof.
    intros Hidx. destruct rle as [c|]; cbn [tagree idx_ok start_of stx] in *.
    - destruct Hag as (-> & _). cbn [E_rle et_log]. rewrite zero_field. reflexivity.
    - apply (init_reads D E syms idx A Hag Hidx).
  Qed.

  Lemma step_reads sym target A : In sym syms -> idx_ok D rle target ->
    let cur := et_next E sym target in
    step_of D rle (stx D rle (es_index cur)) (rd (rev (fields_bits (A ++ [(target - es_base cur, es_bits cur)]))))
    = ROk (stx D rle target, rd (rev (fields_bits A))).
  Proof.
    intros Hin Hidx cur. subst cur. destruct rle as [c|]; cbn [tagree idx_ok step_of stx] in *.
    - destruct Hag as (-> & _). cbn [E_rle et_next es0 es_bits]. rewrite zero_field. reflexivity.
    - destruct Hag as (_ & _ & G). destruct (proj2 (G sym Hin) target Hidx) as ((_ & ->) & _).
      apply (update_reads D E syms sym _ target A Hag Hin Hidx eq_refl).
  Qed.
End Table.

Lemma cseq_ok_value q : cseq_ok q -> exists v, cseq_value q = Some v.
Proof. intros (_ & _ & _ & _ & (bl & Ell) & (bm & Eml)). unfold cseq_value. rewrite Ell, Eml. eexists. reflexivity. Qed.

Lemma seq_loop_turn s q v k total ll ml of B done acc :
  cseq_ok q -> cseq_value q = Some v ->
  code_of (fs_ll_rle s) ll = c_ll q -> code_of (fs_ml_rle s) ml = c_ml q -> code_of (fs_of_rle s) of = c_of q ->
  seq_loop (S k) total s ll ml of (rd (rev (fields_bits (B ++ extras q)))) done acc =
    let* (ll', ml', of', br) :=
      (if done + 1 <? total then
         let* (ll', br) := step_of (fs_ll s) (fs_ll_rle s) ll (rd (rev (fields_bits B))) in
         let* (ml', br) := step_of (fs_ml s) (fs_ml_rle s) ml br in
         let* (of', br) := step_of (fs_of s) (fs_of_rle s) of br in
         ROk (ll', ml', of', br)
       else ROk (ll, ml, of, rd (rev (fields_bits B)))) in
    if rbr_bits_remaining br <? 0 then RErr "NotEnoughBytesForNumSequences"
    else seq_loop k total s ll' ml' of' br (done + 1) (v :: acc).
Proof.
  intros (Hal & Ham & Hco & Hao & (bl & Ell) & (bm & Eml)) Hv Cl Cm Co.
  unfold cseq_value in Hv. rewrite Ell, Eml in Hv. injection Hv as <-.
  cbn [seq_loop]. rewrite Cl, Cm, Co, Ell, Eml. cbn [rbind].
  destruct (Z.ltb_spec MAX_OFFSET_CODE (c_of q)) as [|_]; [lia|].
  unfold rbr_get_bits_triple, extras. rewrite snoc3.
  remember (Z.to_nat (c_of q)) as w eqn:Hw. assert (Hck : c_of q = Z.of_nat w) by lia. rewrite Hck in Hao |- *.
  rewrite !read_last_field by assumption.
  destruct (Z.eqb_spec (a_of q + 2 ^ Z.of_nat w) 0) as [Hz|_]; [lia|]. reflexivity.
Qed.

Lemma enc_body_cons Ell Eml Eof q r sl sm so fs : r <> [] -> enc_body Ell Eml Eof r = (sl, sm, so, fs) ->
  enc_body Ell Eml Eof (q :: r) =
    let nof := et_next Eof (c_of q) so in let nml := et_next Eml (c_ml q) sm in let nll := et_next Ell (c_ll q) sl in
    (es_index nll, es_index nml, es_index nof,
     fs ++ [(so - es_base nof, es_bits nof); (sm - es_base nml, es_bits nml); (sl - es_base nll, es_bits nll)] ++ extras q).
Proof. intros Hr E. destruct r; [congruence|]. cbn [enc_body] in *. rewrite E. reflexivity. Qed.

Section DecR.
  Variables (Ell Eml Eof : enc_table) (Dll Dml Dof : fse_table) (rll rml rof : option Z).
  Variable syms_ll syms_ml syms_of : list Z.
  Hypothesis All : tagree Dll rll Ell syms_ll.
  Hypothesis Aml : tagree Dml rml Eml syms_ml.
  Hypothesis Aof : tagree Dof rof Eof syms_of.

  Lemma seq_loop_reads qs : qs <> [] -> Forall cseq_ok qs -> Forall (q_in syms_ll syms_ml syms_of) qs ->
    let '(sl, sm, so, fs) := enc_body Ell Eml Eof qs in
    (idx_ok Dll rll sl /\ idx_ok Dml rml sm /\ idx_ok Dof rof so) /\
    exists vals,
      Forall2 (fun q v => cseq_value q = Some v) qs vals /\
      forall A done acc,
        seq_loop (length qs) (done + Z.of_nat (length qs)) (scr Dll rll Dml rml Dof rof)
                 (stx Dll rll sl) (stx Dml rml sm) (stx Dof rof so) (rd (rev (fields_bits (A ++ fs)))) done acc
        = ROk (rev vals ++ acc, rd (rev (fields_bits A))).
  Proof.
    induction qs as [|q r IH]; intros Hne Hok Hin; [congruence|].
    inversion Hok as [|? ? Hq Hok']; subst. inversion Hin as [|? ? (Il & Im & Io) Hin']; subst.
    destruct (cseq_ok_value q Hq) as (v & Hv).
    destruct r as [|q2 r2].
    - (* the last sequence: the start states, no transition *)
      cbn [enc_body].
      pose proof (start_state _ _ _ _ All _ Il) as Wl. pose proof (start_state _ _ _ _ Aml _ Im) as Wm.
      pose proof (start_state _ _ _ _ Aof _ Io) as Wo.
      split; [repeat split; eapply wstate_idx; eassumption|].
      exists [v]. split; [constructor; [exact Hv|constructor]|]. intros A done acc.
      cbn [length]. rewrite (seq_loop_turn _ q v) by (assumption || (eapply wstate_code; eassumption)).
      destruct (Z.ltb_spec (done + 1) (done + Z.of_nat 1)) as [Hx|_]; [lia|]. cbn [rbind].
      rewrite rd_remaining. destruct (Z.ltb_spec (Z.of_nat (length (rev (fields_bits A)))) 0) as [|_]; [lia|]. reflexivity.
    - (* the three transitions, written of, ml, ll -> read ll, ml, of *)
      set (r := q2 :: r2) in *. assert (Hr : r <> []) by discriminate. clearbody r. specialize (IH Hr Hok' Hin').
      destruct (enc_body Ell Eml Eof r) as [[[sl' sm'] so'] fs'] eqn:Er.
      rewrite (enc_body_cons _ _ _ q r _ _ _ _ Hr Er). cbv zeta.
      destruct IH as ((Bl & Bm & Bo) & vals & Hvs & Hloop).
      pose proof (next_state _ _ _ _ All _ _ Il Bl) as Wl. pose proof (next_state _ _ _ _ Aml _ _ Im Bm) as Wm.
      pose proof (next_state _ _ _ _ Aof _ _ Io Bo) as Wo.
      split; [repeat split; eapply wstate_idx; eassumption|].
      exists (v :: vals). split; [constructor; assumption|]. intros A done acc.
      replace (done + Z.of_nat (length (q :: r))) with (done + 1 + Z.of_nat (length r)) by (cbn [length]; lia).
      cbn [length]. rewrite !app_assoc, (seq_loop_turn _ q v) by (assumption || (eapply wstate_code; eassumption)).
      destruct (Z.ltb_spec (done + 1) (done + 1 + Z.of_nat (length r))) as [_|Hx]; [|destruct r; [congruence|cbn [length] in Hx; lia]].
      rewrite snoc3. cbn [scr fs_ll fs_ml fs_of fs_ll_rle fs_ml_rle fs_of_rle].
      rewrite (step_reads _ _ _ _ All _ _ _ Il Bl). cbn [rbind].
      rewrite (step_reads _ _ _ _ Aml _ _ _ Im Bm). cbn [rbind].
      rewrite (step_reads _ _ _ _ Aof _ _ _ Io Bo). cbn [rbind].
      rewrite rd_remaining. destruct (Z.ltb_spec (Z.of_nat (length (rev (fields_bits (A ++ fs'))))) 0) as [|_]; [lia|].
      rewrite Hloop. cbn [rev]. rewrite <- app_assoc. reflexivity.
  Qed.

  Theorem sequences_stream_roundtrip_r qs : qs <> [] -> Forall cseq_ok qs -> Forall (q_in syms_ll syms_ml syms_of) qs ->
    let bytes := stream_bytes (enc_fields Ell Eml Eof qs) in
    exists r0 ll r1 of r2 ml r3 vals rf,
      rbr_skip_padding (rbr_new bytes) = Some r0 /\
      start_of Dll rll r0 = ROk (ll, r1) /\ start_of Dof rof r1 = ROk (of, r2) /\ start_of Dml rml r2 = ROk (ml, r3) /\
      seq_loop (length qs) (Z.of_nat (length qs)) (scr Dll rll Dml rml Dof rof) ll ml of r3 0 [] = ROk (rev vals, rf) /\
      Forall2 (fun q v => cseq_value q = Some v) qs vals /\
      rbr_bits_remaining rf = 0.
  Proof.
    intros Hne Hok Hin bytes. unfold bytes, enc_fields.
    destruct (enc_body Ell Eml Eof qs) as [[[sl sm] so] fs] eqn:Eb.
    pose proof (seq_loop_reads qs Hne Hok Hin) as H. rewrite Eb in H. destruct H as ((Bl & Bm & Bo) & vals & Hv & Hloop).
    specialize (Hloop [] 0 []). rewrite app_nil_r in Hloop. rewrite snoc3.
    do 7 eexists. exists vals. eexists.
    split; [apply padding_skipped|].
    split; [apply (start_reads _ _ _ _ All _ _ Bl)|].
    split; [apply (start_reads _ _ _ _ Aof _ _ Bo)|].
    split; [apply (start_reads _ _ _ _ Aml _ _ Bm)|].
    split; [exact Hloop|]. split; [exact Hv|reflexivity].
  Qed.
End DecR.

(** with the encoder tables derived from the decoding tables (what the executable model [reencode] uses and what the
    real compressor's stream is compared with on every run), and no table in RLE mode: *)
Corollary derived_encoder_roundtrip Dll Dml Dof sl sm so qs :
  table_wf Dll -> table_wf Dml -> table_wf Dof ->
  Forall (covers Dll) sl -> Forall (covers Dml) sm -> Forall (covers Dof) so ->
  qs <> [] -> Forall cseq_ok qs -> Forall (q_in sl sm so) qs ->
  let bytes := stream_bytes (enc_fields (enc_of_dec Dll) (enc_of_dec Dml) (enc_of_dec Dof) qs) in
  exists r0 ll r1 of r2 ml r3 vals rf,
    rbr_skip_padding (rbr_new bytes) = Some r0 /\
    fse_init_state Dll r0 = ROk (ll, r1) /\ fse_init_state Dof r1 = ROk (of, r2) /\ fse_init_state Dml r2 = ROk (ml, r3) /\
    seq_loop (length qs) (Z.of_nat (length qs)) (sc Dll Dml Dof) ll ml of r3 0 [] = ROk (rev vals, rf) /\
    Forall2 (fun q v => cseq_value q = Some v) qs vals /\
    rbr_bits_remaining rf = 0.
Proof.
  intros W1 W2 W3 C1 C2 C3.
  apply (sequences_stream_roundtrip_r _ _ _ Dll Dml Dof None None None); apply derived_encoder_agrees; assumption.
Qed.
