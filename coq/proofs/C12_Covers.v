(** C12: the general table theorem for distributions without "less than one" probabilities (what the compressor's
    normaliser produces): for every accuracy log 5..9 and every vector of non-negative probabilities summing to
    2^accuracy_log, [build_decoding_table] succeeds, and every symbol with a positive probability has states whose
    ranges cover the whole state space (the hypothesis [covers] of the stream theorems).  A special case of
    [general_table]: without "less than one" probabilities the weight is the sum. *)
Require Import Zrs.lib.RsPrelude Zrs.model.FseDec Zrs.model.FseNorm.
Require Import Zrs.proofs.C12_SeqStream Zrs.proofs.C12_Norm Zrs.proofs.C12_General.
Open Scope Z_scope.

Lemma firstn_upd_skipn {A} (l : list A) i v : (i < length l)%nat -> upd l i v = firstn i l ++ v :: skipn (S i) l.
Proof.
  revert i. induction l as [|h t IH]; intros i Hi; [cbn in Hi; lia|]. destruct i; cbn [upd firstn skipn app]; [reflexivity|].
  rewrite IH by (cbn in Hi; lia). reflexivity.
Qed.

Theorem built_table_covers al probs ms :
  5 <= al <= 9 -> Forall (fun p => 0 <= p) probs -> zsum probs = 2 ^ al ->
  (length probs <= 256)%nat -> Z.of_nat (length probs) <= ms + 1 ->
  exists D, fse_build_from_probabilities (fse_new ms) al probs = ROk D /\
    forall i, (i < length probs)%nat -> 1 <= nth i probs 0 -> covers D (Z.of_nat i).
Proof.
  intros Hal Hp Hsum Hlen Hms.
  destruct (general_table al probs ms Hal) as (D & Eb & _ & _ & Hc);
    [eapply Forall_impl; [|exact Hp]; cbv beta; intros; lia|rewrite weight_is_sum by exact Hp; exact Hsum|exact Hlen|exact Hms|].
  exists D. split; [exact Eb|]. intros i Hi Hpi. apply Hc; [exact Hi|lia].
Qed.
