(** C03: decoding a Huffman-coded stream never panics and never stands still, for every complete table (in particular
    every table the decoder builds, C03_HufComplete) and every byte string. *)
Require Import Zrs.lib.RsPrelude Zrs.proofs.ModelFacts Zrs.lib.Bits Zrs.model.BitIO Zrs.model.HufDec.
Require Import Zrs.proofs.C12_Stream Zrs.proofs.C13_Stream.
Require Import Zrs.proofs.C03_HufComplete.
Open Scope Z_scope.

Definition rwf (r : rbr) : Prop := r_left r = Z.of_nat (length (r_rest r)) /\ 0 <= r_extra r.

Lemma rbr_new_wf src : rwf (rbr_new src).
Proof.
  unfold rwf, rbr_new. cbn [r_left r_rest r_extra]. rewrite bits_rev_is_rev, rev_length, bits_of_bytes_length. lia.
Qed.

Lemma get_bits_wf r n : rwf r -> 0 <= n ->
  rwf (snd (rbr_get_bits r n)) /\ 0 <= fst (rbr_get_bits r n) < 2 ^ n /\
  rbr_bits_remaining (snd (rbr_get_bits r n)) = rbr_bits_remaining r - n.
Proof.
  intros (Hl & He) Hn. unfold rbr_get_bits, rbr_bits_remaining, rwf.
  destruct (Z.leb_spec n 0) as [H0|Hpos]; cbn [fst snd].
  - assert (n = 0) by lia. subst n. repeat split; try assumption; try lia.
  - destruct (Z.leb_spec n (r_left r)) as [Hin|Hout]; cbn [fst snd r_left r_rest r_extra].
    + rewrite skipn_length. split; [split; lia|]. split; [|lia].
      pose proof (msb_bound (firstn (Z.to_nat n) (r_rest r))) as B. rewrite firstn_length, Nat.min_l in B by lia. rewrite Z2Nat.id in B by lia. exact B.
    + cbn [length]. split; [split; lia|]. split; [|lia].
      pose proof (msb_bound (r_rest r)) as B. rewrite <- Hl in B.
      assert (P : 0 < 2 ^ (n - r_left r)) by (apply Z.pow_pos_nonneg; lia).
      assert (E : 2 ^ n = 2 ^ r_left r * 2 ^ (n - r_left r)) by (rewrite <- Z.pow_add_r by lia; f_equal; lia).
      split; [nia|]. rewrite E. nia.
Qed.

Section Stream.
  Variable t : huf_table.
  Variable M : Z.
  Hypothesis HM : 1 <= M.
  Hypothesis Hmax : ht_max_bits t = M.
  Hypothesis Hlen : ht_len t = 2 ^ M.
  Hypothesis Hbits : forall i, 0 <= i < 2 ^ M -> 1 <= h_bits (nth_h (ht_decode t) i) <= M.

  Lemma next_state_ok state br : 0 <= state < 2 ^ M -> rwf br ->
    exists s' br', huf_next_state t state br = ROk (s', br') /\ 0 <= s' < 2 ^ M /\ rwf br' /\
      rbr_bits_remaining br' <= rbr_bits_remaining br - 1.
  Proof.
    intros Hs Hw. unfold huf_next_state. rewrite Hlen. destruct (Z.leb_spec (2 ^ M) state); [lia|].
    set (nb := h_bits (nth_h (ht_decode t) state)). pose proof (Hbits state Hs) as Hnb. fold nb in Hnb.
    destruct (get_bits_wf br nb Hw ltac:(lia)) as (W' & V & Rm).
    destruct (rbr_get_bits br nb) as [v br'] eqn:Eg. cbn [fst snd] in *.
    eexists _, _. split; [reflexivity|]. split; [|split; [exact W'|lia]].
    rewrite land_ones_mod by lia.
    assert (P : 0 < 2 ^ nb) by (apply Z.pow_pos_nonneg; lia).
    assert (E : 2 ^ M = 2 ^ (M - nb) * 2 ^ nb) by (rewrite <- Z.pow_add_r by lia; f_equal; lia).
    assert (Em : (state * 2 ^ nb) mod 2 ^ M = (state mod 2 ^ (M - nb)) * 2 ^ nb).
    { rewrite E. rewrite Z.mul_mod_distr_r by lia. reflexivity. }
    rewrite Em. rewrite Z.lor_comm. rewrite lor_low_shifted by lia.
    assert (P2 : 0 < 2 ^ (M - nb)) by (apply Z.pow_pos_nonneg; lia).
    pose proof (Z.mod_pos_bound state (2 ^ (M - nb)) P2) as Bm. nia.
  Qed.

  Lemma stream_loop_no_panic fuel : forall state br out, 0 <= state < 2 ^ M -> rwf br ->
    Z.max 0 (rbr_bits_remaining br + M) < Z.of_nat fuel ->
    match huf_stream_loop fuel t state br out with RPanic _ => False | _ => True end.
  Proof.
    induction fuel as [|f IH]; intros state br out Hs Hw Hf.
    - exfalso. cbn in Hf. lia.
    - cbn [huf_stream_loop]. rewrite Hmax. destruct (Z.ltb_spec (- M) (rbr_bits_remaining br)) as [Hgo|Hstop]; [|exact I].
      unfold huf_decode_symbol. rewrite Hlen. destruct (Z.leb_spec (2 ^ M) state); [lia|]. cbn [rbind].
      destruct (next_state_ok state br Hs Hw) as (s' & br' & -> & Hs' & Hw' & Hr). cbn [rbind].
      apply IH; [exact Hs'|exact Hw'|lia].
  Qed.

  Theorem decode_stream_no_panic stream out check : match huf_decode_stream t stream out check with RPanic _ => False | _ => True end.
  Proof.
    unfold huf_decode_stream.
    destruct (rbr_skip_padding (rbr_new stream)) as [br|] eqn:Esk; [|exact I].
    (* skipping the padding only reads single bits *)
    assert (Hsk : rwf br /\ rbr_bits_remaining br <= 8 * Z.of_nat (length stream)).
    { unfold rbr_skip_padding in Esk. pose proof (rbr_new_wf stream) as W0.
      assert (R0 : rbr_bits_remaining (rbr_new stream) = 8 * Z.of_nat (length stream)) by (unfold rbr_bits_remaining, rbr_new; cbn; lia).
      rewrite <- R0. clear R0. revert Esk W0. generalize (rbr_new stream) 0 10%nat. intros r sk fuel. revert r sk.
      induction fuel as [|f IH]; intros r sk Esk W; cbn [skip_padding] in Esk; [discriminate|].
      destruct (get_bits_wf r 1 W ltac:(lia)) as (W' & _ & Rm).
      destruct (rbr_get_bits r 1) as [v r'] eqn:Eg. cbn [snd] in *.
      destruct ((v =? 1) || (8 <? sk + 1)).
      - destruct (8 <? sk + 1); [discriminate|]. injection Esk as <-. split; [exact W'|lia].
      - destruct (IH _ _ Esk W') as (A & B). split; [exact A|lia]. }
    destruct Hsk as (W & Hr).
    unfold huf_init_state. rewrite Hmax.
    destruct (get_bits_wf br M W ltac:(lia)) as (W' & V & Rm).
    destruct (rbr_get_bits br M) as [state br'] eqn:Eg. cbn [fst snd] in *.
    pose proof (stream_loop_no_panic (S (8 * length stream + 16)) state br' out V W' ltac:(lia)) as NP.
    destruct (huf_stream_loop _ t state br' out) as [[o b]|e|e]; cbn [rbind].
    - destruct (check && negb (rbr_bits_remaining b =? - M)); exact I.
    - exact I.
    - contradiction.
  Qed.
End Stream.

Theorem built_table_stream_no_panic ht src t used stream out check :
  huf_build_decoder ht src = ROk (t, used) -> Forall (fun w => 0 <= w) (ht_weights t) ->
  match huf_decode_stream t stream out check with RPanic _ => False | _ => True end.
Proof.
  unfold huf_build_decoder. intros H Hw.
  destruct (read_weights ht src) as [[[ws ft] bytes]|e|e]; cbn [rbind] in H; try discriminate.
  destruct (build_table_from_weights ws) as [[[[[dec M] bits] ranks] idxs]|e|e] eqn:Eb; cbn [rbind] in H; try discriminate.
  injection H as <- _. cbn [ht_weights] in Hw.
  destruct (built_huffman_table_complete ws dec M bits ranks idxs Hw Eb) as (Ld & HM & Hbits).
  apply (decode_stream_no_panic _ M); cbn [ht_max_bits ht_len ht_decode]; [lia|reflexivity|reflexivity|exact Hbits].
Qed.
