(** C12 / C16: the sequences bit stream, one table at a time.  An encoder table and a decoding table AGREE when each
    encoder state is the decoder's entry at its index and covers the state it is entered from -- a decidable property of
    two tables, validated on the real tables on every run.  Then a start state and a transition, written as the last
    field of a backward bit stream (C12_Stream.v), are read back by [fse_init_state] and [fse_update_state]; and the
    encoder table derived from a decoding table agrees with it.  The loop over the sequences is in C12_SeqStreamR.v. *)
Require Import Zrs.lib.RsPrelude Zrs.gen.Generated Zrs.model.BitIO Zrs.model.FseDec Zrs.model.BlockDec.
Require Import Zrs.model.BitStream Zrs.model.SeqEnc Zrs.proofs.C12_Stream.
Open Scope Z_scope.

Definition entry_is (D : fse_table) (sym : Z) (s : enc_state) : Prop :=
  0 <= es_index s < t_len D /\
  nth_e (t_decode D) (es_index s) = {| e_base := es_base s; e_bits := Z.of_nat (es_bits s); e_sym := sym |}.
Definition agree (D : fse_table) (E : enc_table) (syms : list Z) : Prop :=
  t_acc_log D = Z.of_nat (et_log E) /\ (0 < et_log E)%nat /\
  forall sym, In sym syms ->
    entry_is D sym (et_start E sym) /\
    forall idx, 0 <= idx < t_len D ->
      entry_is D sym (et_next E sym idx) /\
      es_base (et_next E sym idx) <= idx < es_base (et_next E sym idx) + 2 ^ Z.of_nat (es_bits (et_next E sym idx)).

Definition cseq_ok (q : cseq) : Prop :=
  0 <= a_ll q < 2 ^ Z.of_nat (n_ll q) /\ 0 <= a_ml q < 2 ^ Z.of_nat (n_ml q) /\ 0 <= c_of q <= MAX_OFFSET_CODE /\
  0 <= a_of q < 2 ^ c_of q /\
  (exists b, lookup_ll_code (c_ll q) = ROk (b, Z.of_nat (n_ll q))) /\
  (exists b, lookup_ml_code (c_ml q) = ROk (b, Z.of_nat (n_ml q))).
Definition cseq_value (q : cseq) : option sequence :=
  match lookup_ll_code (c_ll q), lookup_ml_code (c_ml q) with
  | ROk (bl, _), ROk (bm, _) => Some {| sq_ll := bl + a_ll q; sq_ml := bm + a_ml q; sq_of := a_of q + 2 ^ c_of q |}
  | _, _ => None
  end.

Lemma read_last_field A v n : 0 <= v < 2 ^ Z.of_nat n ->
  rbr_get_bits (rd (rev (fields_bits (A ++ [(v, n)])))) (Z.of_nat n) = (v, rd (rev (fields_bits A))).
Proof. intros H. rewrite fields_bits_snoc. apply read_field. exact H. Qed.

Lemma snoc3 {T} (B : list T) f1 f2 f3 : B ++ [f1; f2; f3] = ((B ++ [f1]) ++ [f2]) ++ [f3].
Proof. rewrite <- !app_assoc. reflexivity. Qed.

Lemma rd_remaining s : rbr_bits_remaining (rd s) = Z.of_nat (length s).
Proof. unfold rbr_bits_remaining, rd. cbn. lia. Qed.

Lemma update_reads D E syms sym (cur : enc_state) target A :
  agree D E syms -> In sym syms -> 0 <= target < t_len D -> cur = et_next E sym target ->
  fse_update_state D {| e_base := es_base cur; e_bits := Z.of_nat (es_bits cur); e_sym := sym |}
    (rd (rev (fields_bits (A ++ [(target - es_base cur, es_bits cur)]))))
  = ROk (nth_e (t_decode D) target, rd (rev (fields_bits A))).
Proof.
  intros (Hlog & Hpos & Hag) Hin Ht ->. destruct (Hag sym Hin) as (_ & Hn). destruct (Hn target Ht) as ((Hi & He) & Hr).
  unfold fse_update_state. cbn [e_bits e_base].
  rewrite read_last_field by lia.
  replace (es_base (et_next E sym target) + (target - es_base (et_next E sym target))) with target by lia.
  destruct (Z.leb_spec (t_len D) target) as [|_]; [lia|]. reflexivity.
Qed.

Lemma init_reads D E syms (idx : Z) A : agree D E syms -> 0 <= idx < t_len D ->
  fse_init_state D (rd (rev (fields_bits (A ++ [(idx, et_log E)])))) = ROk (nth_e (t_decode D) idx, rd (rev (fields_bits A))).
Proof.
  intros (Hlog & Hpos & _) Hi. unfold fse_init_state. rewrite Hlog.
  destruct (Z.eqb_spec (Z.of_nat (et_log E)) 0) as [|_]; [lia|].
  assert (Hl : t_len D = 2 ^ Z.of_nat (et_log E)).
  { unfold t_len. rewrite Hlog. destruct (Z.eqb_spec (Z.of_nat (et_log E)) 0); [lia|reflexivity]. }
  rewrite read_last_field by lia. destruct (Z.leb_spec (t_len D) idx) as [|_]; [lia|]. reflexivity.
Qed.

Section Dec.
  Variables (Dll Dml Dof : fse_table).
  Variable syms_ll syms_ml syms_of : list Z.

  Definition sc : fse_scratch :=
    {| fs_of := Dof; fs_of_rle := None; fs_ll := Dll; fs_ll_rle := None; fs_ml := Dml; fs_ml_rle := None |}.

  Definition q_in (q : cseq) : Prop := In (c_ll q) syms_ll /\ In (c_ml q) syms_ml /\ In (c_of q) syms_of.
End Dec.

Definition table_wf (D : fse_table) : Prop :=
  Z.of_nat (length (t_decode D)) = t_len D /\ Forall (fun e => 0 <= e_bits e) (t_decode D) /\ 0 < t_acc_log D.
(** decidable; [general_table] (C12_General.v) gives it for every symbol present in a built table *)
Definition covers (D : fse_table) (sym : Z) : Prop :=
  min_base (t_decode D) 0 sym None <> None /\
  forall idx, 0 <= idx < t_len D ->
    find_entry (t_decode D) 0 (fun e => (e_sym e =? sym) && (e_base e <=? idx) && (idx <? e_base e + 2 ^ e_bits e)) <> None.

Lemma at_head {A} (d x : A) t i : i <= i < i + Z.of_nat (length (x :: t)) /\ nth (Z.to_nat (i - i)) (x :: t) d = x.
Proof. cbn [length]. rewrite Z.sub_diag. split; [lia|reflexivity]. Qed.

Lemma in_tail {A} (d x : A) t i j e : i + 1 <= j < i + 1 + Z.of_nat (length t) -> nth (Z.to_nat (j - (i + 1))) t d = e ->
  i <= j < i + Z.of_nat (length (x :: t)) /\ nth (Z.to_nat (j - i)) (x :: t) d = e.
Proof.
  intros H E. cbn [length]. split; [lia|]. replace (Z.to_nat (j - i)) with (S (Z.to_nat (j - (i + 1)))) by lia. exact E.
Qed.

Lemma find_entry_spec l : forall i p j e, find_entry l i p = Some (j, e) ->
  i <= j < i + Z.of_nat (length l) /\ nth (Z.to_nat (j - i)) l entry0 = e /\ p e = true.
Proof.
  induction l as [|x t IH]; intros i p j e H; cbn [find_entry] in H; [discriminate|].
  destruct (p x) eqn:Ep.
  - injection H as <- <-. destruct (at_head entry0 x t i). auto.
  - destruct (IH _ _ _ _ H) as (A & B & C). destruct (in_tail entry0 x t i j e A B). auto.
Qed.

Lemma min_base_spec l : forall i sym best j e, min_base l i sym best = Some (j, e) ->
  best = Some (j, e) \/ (i <= j < i + Z.of_nat (length l) /\ nth (Z.to_nat (j - i)) l entry0 = e /\ e_sym e = sym).
Proof.
  induction l as [|x t IH]; intros i sym best j e H; cbn [min_base] in H; [left; exact H|].
  destruct (IH _ _ _ _ _ H) as [Hb|(A & B & C)].
  - (* the result is the candidate passed on: the old one, or [x] *)
    destruct (Z.eqb_spec (e_sym x) sym) as [Es|_]; [|left; exact Hb].
    assert (Hx : Some (i, x) = Some (j, e) -> best = Some (j, e) \/
                 i <= j < i + Z.of_nat (length (x :: t)) /\ nth (Z.to_nat (j - i)) (x :: t) entry0 = e /\ e_sym e = sym)
      by (intros [= <- <-]; right; destruct (at_head entry0 x t i); auto).
    destruct best as [[bi be]|]; [destruct (e_base x <? e_base be); [|left; exact Hb]|]; exact (Hx Hb).
  - right. destruct (in_tail entry0 x t i j e A B). auto.
Qed.

Lemma entry_of_index D sym j e : table_wf D -> 0 <= j < Z.of_nat (length (t_decode D)) ->
  nth (Z.to_nat j) (t_decode D) entry0 = e -> e_sym e = sym ->
  entry_is D sym (to_state (Some (j, e))).
Proof.
  intros (Hl & Hb & _) Hj Hn Hs. unfold entry_is, to_state. cbn [es_index es_bits es_base]. split; [lia|].
  unfold nth_e. rewrite Hn. rewrite Forall_forall in Hb.
  assert (0 <= e_bits e) by (apply Hb; rewrite <- Hn; apply nth_In; lia).
  destruct e as [b n s]. cbn [e_base e_bits e_sym] in *. subst s. f_equal. lia.
Qed.

Theorem derived_encoder_agrees D syms : table_wf D -> Forall (covers D) syms -> agree D (enc_of_dec D) syms.
Proof.
  intros W Hc. pose proof W as (Hl & Hb & Hpos). unfold agree. cbn [et_log enc_of_dec].
  split; [lia|]. split; [lia|].
  intros sym Hin. rewrite Forall_forall in Hc. destruct (Hc sym Hin) as (Hmin & Hcov).
  split.
  - cbn [et_start enc_of_dec]. destruct (min_base (t_decode D) 0 sym None) as [[j e]|] eqn:E; [|congruence].
    destruct (min_base_spec _ _ _ _ _ _ E) as [|(A & B & C)]; [discriminate|].
    replace (j - 0) with j in B by lia. apply (entry_of_index D sym j e W); [lia|exact B|exact C].
  - intros idx Hidx. cbn [et_next enc_of_dec].
    destruct (find_entry (t_decode D) 0 _) as [[j e]|] eqn:E; [|exfalso; exact (Hcov idx Hidx E)].
    destruct (find_entry_spec _ _ _ _ _ E) as (A & B & C).
    apply andb_prop in C. destruct C as [C C3]. apply andb_prop in C. destruct C as [C1 C2].
    apply Z.eqb_eq in C1. apply Z.leb_le in C2. apply Z.ltb_lt in C3.
    rewrite Forall_forall in Hb.
    assert (Hbits : 0 <= e_bits e) by (apply Hb; rewrite <- B; apply nth_In; lia).
    split.
    + replace (j - 0) with j in B by lia. apply (entry_of_index D sym j e W); [lia|exact B|exact C1].
    + unfold to_state. cbn [es_base es_bits]. rewrite Z2Nat.id by exact Hbits. lia.
Qed.
