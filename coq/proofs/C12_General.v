(** C12 / C03: the general FSE table theorem.  For every accuracy log 5..9 and EVERY normalised distribution --
    probabilities >= -1 ("less than one" counting 1) with total weight 2^accuracy_log -- the decoder's table construction
    succeeds; every entry's state range lies inside the table (so no state transition can index out of it); and every
    symbol with a non-zero probability has states covering the whole state space. *)
Require Import Zrs.lib.RsPrelude Zrs.proofs.ModelFacts Zrs.lib.ListFacts Zrs.model.FseDec Zrs.model.FseEnc.
Require Import Zrs.model.SeqEnc Zrs.proofs.C12_Fse Zrs.proofs.C12_SeqStream.
Require Import Zrs.proofs.C12_Norm Zrs.proofs.C12_TableWf Zrs.proofs.C12_Walk.
Require Import Permutation.
Open Scope Z_scope.

Fixpoint cneg (probs : list Z) : Z := match probs with [] => 0 | p :: t => (if p =? -1 then 1 else 0) + cneg t end.
Lemma cneg_nonneg probs : 0 <= cneg probs.
Proof. induction probs as [|p t IH]; cbn [cneg]; [lia|]. destruct (p =? -1); lia. Qed.

Lemma nth_e_upd dec i e j : 0 <= i < Z.of_nat (length dec) -> 0 <= j -> nth_e (upd dec (Z.to_nat i) e) j = if j =? i then e else nth_e dec j.
Proof.
  intros Hi Hj. unfold nth_e. destruct (Z.eqb_spec j i) as [->|Hn]; [apply nth_upd_eq; lia|apply nth_upd_neq; lia].
Qed.

Lemma place_negative_spec probs : forall sym al n0 dec, cneg probs <= n0 <= Z.of_nat (length dec) ->
  exists dec', place_negative probs sym al n0 dec = ROk (n0 - cneg probs, dec') /\ length dec' = length dec /\
    (forall i, n0 <= i -> nth_e dec' i = nth_e dec i) /\
    (forall i, n0 - cneg probs <= i < n0 -> exists k, (k < length probs)%nat /\ nth k probs 0 = -1 /\
       nth_e dec' i = {| e_base := 0; e_bits := al; e_sym := (sym + Z.of_nat k) mod 256 |}) /\
    (forall k, (k < length probs)%nat -> nth k probs 0 = -1 ->
       exists i, n0 - cneg probs <= i < n0 /\ nth_e dec' i = {| e_base := 0; e_bits := al; e_sym := (sym + Z.of_nat k) mod 256 |}).
Proof.
  induction probs as [|p t IH]; intros sym al n0 dec Hn; cbn [cneg] in *.
  - exists dec. replace (n0 - 0) with n0 by lia. repeat split; try reflexivity; try lia. intros k Hk. cbn in Hk. lia.
  - pose proof (cneg_nonneg t) as Hc. set (e := {| e_base := 0; e_bits := al; e_sym := (sym + Z.of_nat 0) mod 256 |}).
    (* the first symbol takes the slot n0 - 1 if it is "less than one" (d = 1) and nothing otherwise (d = 0) *)
    assert (Hstep : exists d dec1, (p = -1 /\ d = 1 /\ nth_e dec1 (n0 - 1) = e \/ p <> -1 /\ d = 0) /\
              (if p =? -1 then 1 else 0) = d /\ length dec1 = length dec /\
              place_negative (p :: t) sym al n0 dec = place_negative t (sym + 1) al (n0 - d) dec1 /\
              forall i, n0 <= i -> nth_e dec1 i = nth_e dec i).
    { cbn [place_negative]. destruct (Z.eqb_spec p (-1)) as [Ep|Ep].
      - destruct (Z.leb_spec n0 0); [lia|]. exists 1, (upd dec (Z.to_nat (n0 - 1)) e). rewrite upd_length. unfold e. rewrite Z.add_0_r.
        split; [left; rewrite nth_e_upd, Z.eqb_refl by lia; auto|]. repeat split.
        intros i Hi. rewrite nth_e_upd by lia. destruct (Z.eqb_spec i (n0 - 1)); [lia|reflexivity].
      - exists 0, dec. rewrite Z.sub_0_r. split; [right; auto|]. repeat split. }
    destruct Hstep as (d & dec1 & Hd & Ed & L1 & -> & Hsame). rewrite Ed in *.
    assert (Hd01 : d = 0 \/ d = 1) by (destruct Hd as [(_ & -> & _)|(_ & ->)]; auto).
    destruct (IH (sym + 1) al (n0 - d) dec1 ltac:(lia)) as (dec' & E & L & Hout & Hin & Hsym).
    assert (Hshift : forall k, (sym + 1 + Z.of_nat k) mod 256 = (sym + Z.of_nat (S k)) mod 256) by (intros k; f_equal; lia).
    exists dec'. replace (n0 - (d + cneg t)) with (n0 - d - cneg t) by lia. split; [exact E|]. split; [lia|]. split; [|split].
    + intros i Hi. rewrite Hout by lia. apply Hsame. exact Hi.
    + intros i Hi. destruct (Z.lt_ge_cases i (n0 - d)) as [Hlt|Hge].
      * destruct (Hin i ltac:(lia)) as (k & Hk & Hpk & Ei). exists (S k). rewrite <- Hshift. cbn [length nth]. split; [lia|]. split; assumption.
      * destruct Hd as [(Ep & -> & He)|(_ & ->)]; [|lia]. exists 0%nat. replace i with (n0 - 1) by lia. rewrite Hout by lia.
        cbn [length nth]. split; [lia|]. split; assumption.
    + intros [|k] Hk Hp; cbn [length nth] in Hk, Hp.
      * destruct Hd as [(_ & -> & He)|(Ep & _)]; [|lia]. exists (n0 - 1). split; [lia|]. rewrite Hout by lia. exact He.
      * destruct (Hsym k ltac:(lia) Hp) as (i & Hi & Ei). exists i. rewrite <- Hshift. split; [lia|exact Ei].
Qed.

Lemma syms_length probs : forall sym0, Forall (fun p => -1 <= p) probs -> Z.of_nat (length (syms probs sym0)) = weight probs - cneg probs.
Proof.
  induction probs as [|p t IH]; intros sym0 Hp; [reflexivity|]. inversion Hp; subst. cbn [syms weight cneg].
  rewrite app_length, Nat2Z.inj_add, IH by assumption. unfold pw.
  destruct (Z.leb_spec p 0); destruct (Z.eqb_spec p (-1)); cbn [length]; rewrite ?repeat_length; lia.
Qed.

Notation cnt_occ := (count_occ Z.eq_dec).

Lemma count_repeat (s x : Z) n : cnt_occ (repeat x n) s = if Z.eq_dec x s then n else 0%nat.
Proof. induction n as [|n IH]; cbn [repeat count_occ]; [destruct (Z.eq_dec x s); reflexivity|]. rewrite IH. destruct (Z.eq_dec x s); reflexivity. Qed.

Lemma syms_count_before probs : forall s0 x, 0 <= x < s0 -> s0 + Z.of_nat (length probs) <= 256 -> cnt_occ (syms probs s0) x = 0%nat.
Proof.
  induction probs as [|q t IH]; intros s0 x Hx Hb; cbn [syms]; [reflexivity|]. cbn [length] in Hb.
  rewrite count_occ_app, IH by lia. rewrite Z.mod_small by lia.
  destruct (q <=? 0); [reflexivity|]. rewrite count_repeat. destruct (Z.eq_dec s0 x); [lia|reflexivity].
Qed.

Lemma syms_count probs : forall sym0 i, 0 <= sym0 -> sym0 + Z.of_nat (length probs) <= 256 -> (i < length probs)%nat ->
  cnt_occ (syms probs sym0) (sym0 + Z.of_nat i) = Z.to_nat (nth i probs 0).
Proof.
  induction probs as [|p t IH]; intros sym0 i H0 Hb Hi; [cbn in Hi; lia|].
  cbn [syms length] in *. rewrite count_occ_app. rewrite Z.mod_small by lia.
  destruct i as [|i]; cbn [nth].
  - rewrite Z.add_0_r. rewrite syms_count_before by lia. destruct (Z.leb_spec p 0) as [Hle|Hgt].
    + cbn. lia.
    + rewrite count_repeat. destruct (Z.eq_dec sym0 sym0); [lia|congruence].
  - assert (Hnone : cnt_occ (if p <=? 0 then [] else repeat sym0 (Z.to_nat p)) (sym0 + Z.of_nat (S i)) = 0%nat).
    { destruct (p <=? 0); [reflexivity|]. rewrite count_repeat. destruct (Z.eq_dec sym0 (sym0 + Z.of_nat (S i))); [lia|reflexivity]. }
    rewrite Hnone. replace (sym0 + Z.of_nat (S i)) with (sym0 + 1 + Z.of_nat i) by lia.
    rewrite IH; [reflexivity|lia|lia|lia].
Qed.

Lemma syms_range probs : forall sym0 s, 0 <= sym0 -> sym0 + Z.of_nat (length probs) <= 256 -> In s (syms probs sym0) ->
  sym0 <= s < sym0 + Z.of_nat (length probs).
Proof.
  induction probs as [|p t IH]; intros sym0 s H0 Hb Hin; [contradiction|]. cbn [syms length] in *.
  apply in_app_or in Hin as [Hin|Hin].
  - destruct (p <=? 0); [contradiction|]. apply repeat_spec in Hin. rewrite Z.mod_small in Hin by lia. lia.
  - specialize (IH (sym0 + 1) s ltac:(lia) ltac:(lia) Hin). lia.
Qed.

Lemma spread_nothing probs : forall sym pos neg size dec, syms probs sym = [] -> spread probs sym pos neg size dec = ROk dec.
Proof.
  induction probs as [|p t IH]; intros sym pos neg size dec H; cbn [spread syms] in *; [reflexivity|].
  destruct (Z.leb_spec p 0) as [_|Hp]; [apply IH; exact H|].
  exfalso. apply (f_equal (@length Z)) in H. rewrite app_length, repeat_length in H. cbn in H. lia.
Qed.

Lemma orbit_chain n : forall pos size, chain_from size pos (tl (orbit (S n) pos size)).
Proof. induction n as [|n IH]; intros pos size; cbn [orbit tl chain_from]; [exact I|]. split; [reflexivity|]. specialize (IH (next_position pos size) size). cbn [orbit tl] in IH. exact IH. Qed.

Lemma chain_app size x l y : chain_from size x l -> y = next_position (last (x :: l) 0) size -> chain_from size x (l ++ [y]).
Proof.
  revert x. induction l as [|z t IH]; intros x Hc Hy; cbn [app chain_from] in *.
  - split; [exact Hy|exact I].
  - destruct Hc as (Ez & Hc). split; [exact Ez|]. apply IH; [exact Hc|]. rewrite Hy. destruct t; reflexivity.
Qed.

Lemma smalls_count neg (O : list Z) n : NoDup O -> length O = n -> (forall x, In x O -> 0 <= x < Z.of_nat n) -> 0 <= neg <= Z.of_nat n ->
  NoDup (smalls neg O) /\ Z.of_nat (length (smalls neg O)) = neg /\ Permutation (smalls neg O) (map Z.of_nat (seq 0 (Z.to_nat neg))).
Proof.
  intros Hnd Hl Hr Hn.
  assert (Hp : Permutation O (map Z.of_nat (seq 0 n))).
  { apply NoDup_Permutation_bis; [exact Hnd|rewrite map_length, seq_length; lia|].
    intros x Hx. apply Hr in Hx. apply in_map_iff. exists (Z.to_nat x). split; [lia|apply in_seq; lia]. }
  assert (Hnd' : NoDup (smalls neg O)) by (apply NoDup_filter; exact Hnd).
  assert (Hperm : Permutation (smalls neg O) (map Z.of_nat (seq 0 (Z.to_nat neg)))).
  { apply NoDup_Permutation; [exact Hnd'| |].
    - apply FinFun.Injective_map_NoDup; [intros a b; lia|apply seq_NoDup].
    - intros x. unfold smalls, small. rewrite filter_In. split.
      + intros (Hin & Hlt). apply Hr in Hin. apply in_map_iff. exists (Z.to_nat x). split; [lia|apply in_seq; lia].
      + intros Hin. apply in_map_iff in Hin as (k & <- & Hk). apply in_seq in Hk. split; [|lia].
        apply (Permutation_in _ (Permutation_sym Hp)). apply in_map_iff. exists k. split; [reflexivity|apply in_seq; lia]. }
  split; [exact Hnd'|]. split; [|exact Hperm].
  rewrite (Permutation_length Hperm), map_length, seq_length. lia.
Qed.

Definition mk_entry (size p k sym : Z) : fse_entry :=
  let '(bl, nb) := calc_baseline_and_numbits size p k in {| e_base := bl; e_bits := nb; e_sym := sym |}.

(** what [assign] writes for the symbols [G] (in state order), counting occurrences in [cnt] *)
Fixpoint assign_pure (size : Z) (probs : list Z) (G : list Z) (cnt : Z -> Z) : list fse_entry :=
  match G with
  | [] => []
  | s :: t => mk_entry size (nth_z probs s) (cnt s) s :: assign_pure size probs t (fun x => if x =? s then cnt s + 1 else cnt x)
  end.

Lemma assign_pure_ext size probs G : forall c c', (forall x, 0 <= x -> c x = c' x) -> Forall (fun s => 0 <= s) G ->
  assign_pure size probs G c = assign_pure size probs G c'.
Proof.
  induction G as [|s t IH]; intros c c' He Hg; cbn [assign_pure]; [reflexivity|]. inversion Hg; subst.
  rewrite (He s) by assumption. f_equal. apply IH; [|assumption].
  intros x Hx. destruct (x =? s); [reflexivity|apply He; exact Hx].
Qed.

Lemma firstn_S_upd {A} (l : list A) : forall i v, (i < length l)%nat -> firstn (S i) (upd l i v) = firstn i l ++ [v].
Proof.
  induction l as [|h t IH]; intros i v Hi; [cbn in Hi; lia|]. destruct i; [reflexivity|].
  cbn [upd]. rewrite !firstn_cons. rewrite IH by (cbn in Hi; lia). reflexivity.
Qed.
Lemma skipn_S_upd {A} (l : list A) : forall i n v, skipn (S i + n) (upd l i v) = skipn (i + S n) l.
Proof.
  induction l as [|h t IH]; intros i n v; [destruct i; cbn [upd]; rewrite !skipn_nil; reflexivity|].
  destruct i; cbn [upd Nat.add skipn]; [reflexivity|]. apply IH.
Qed.

(** [assign] on the states [i, i + n): what [assign_pure] says, given that its bit counts pass the assertion *)
Lemma assign_spec n : forall i size al probs counter dec, (i + n <= length dec)%nat ->
  length counter = length probs ->
  let G := map (sym_at dec) (map Z.of_nat (seq i n)) in
  Forall (fun s => 0 <= s < Z.of_nat (length probs) /\ 0 <= nth_z probs s) G ->
  let out := assign_pure size probs G (nth_z counter) in
  Forall (fun e => e_bits e <= al) out ->
  exists counter', assign n (Z.of_nat i) size al probs counter dec =
    ROk (counter', firstn i dec ++ out ++ skipn (i + n) dec).
Proof.
  induction n as [|n IH]; intros i size al probs counter dec Hb Hc G Hs out Hnb.
  - cbn [assign]. exists counter. unfold out, G. cbn [seq map assign_pure app]. rewrite Nat.add_0_r, firstn_skipn. reflexivity.
  - cbn [assign]. unfold out, G in *. cbn [seq map assign_pure] in *.
    fold (sym_at dec (Z.of_nat i)). set (s := sym_at dec (Z.of_nat i)) in *.
    apply Forall_cons_iff in Hs as [((S0 & S1) & Hpn) Hs]. apply Forall_cons_iff in Hnb as [Hb0 Hrest].
    destruct (Z.leb_spec (Z.of_nat (length probs)) s) as [H|_]; [lia|].
    destruct (Z.ltb_spec (nth_z probs s) 0) as [H|_]; [lia|].
    unfold mk_entry in Hb0 |- *. destruct (calc_baseline_and_numbits size (nth_z probs s) (nth_z counter s)) as [bl nb].
    cbn [e_bits] in Hb0. destruct (Z.ltb_spec al nb) as [H|_]; [lia|]. rewrite Nat2Z.id.
    set (dec1 := upd dec i {| e_base := bl; e_bits := nb; e_sym := s |}).
    set (counter1 := upd counter (Z.to_nat s) (nth_z counter s + 1)).
    set (G1 := map Z.of_nat (seq (S i) n)) in *.
    assert (EG : map (sym_at dec1) G1 = map (sym_at dec) G1).
    { unfold G1. rewrite !map_map. apply map_ext_in. intros k Hk. apply in_seq in Hk.
      unfold sym_at, dec1, nth_e. rewrite Nat2Z.id, nth_upd_neq by lia. reflexivity. }
    assert (Ecnt : assign_pure size probs (map (sym_at dec) G1) (nth_z counter1) =
                   assign_pure size probs (map (sym_at dec) G1) (fun x => if x =? s then nth_z counter s + 1 else nth_z counter x)).
    { apply assign_pure_ext.
      - intros x Hx. unfold counter1. rewrite nth_z_upd by lia. reflexivity.
      - eapply Forall_impl; [|exact Hs]. cbv beta. intros; lia. }
    replace (Z.of_nat i + 1) with (Z.of_nat (S i)) by lia.
    destruct (IH (S i) size al probs counter1 dec1) as (c' & E).
    + unfold dec1. rewrite upd_length. lia.
    + unfold counter1. rewrite upd_length. exact Hc.
    + fold G1. rewrite EG. exact Hs.
    + fold G1. rewrite EG, Ecnt. exact Hrest.
    + exists c'. rewrite E. fold G1. rewrite EG, Ecnt. f_equal. f_equal.
      unfold dec1. rewrite firstn_S_upd by lia. rewrite skipn_S_upd. rewrite <- !app_assoc. reflexivity.
Qed.

Lemma assign_pure_nth size probs G : forall cnt k, (k < length G)%nat ->
  nth k (assign_pure size probs G cnt) entry0 =
    mk_entry size (nth_z probs (nth k G 0)) (cnt (nth k G 0) + Z.of_nat (cnt_occ (firstn k G) (nth k G 0))) (nth k G 0).
Proof.
  induction G as [|s t IH]; intros cnt k Hk; [cbn in Hk; lia|]. destruct k as [|k]; cbn [assign_pure nth firstn].
  - cbn [count_occ]. rewrite Z.add_0_r. reflexivity.
  - rewrite IH by (cbn in Hk; lia). cbn [count_occ]. destruct (Z.eq_dec s (nth k t 0)) as [E|E].
    + rewrite <- E, Z.eqb_refl. f_equal. lia.
    + destruct (Z.eqb_spec (nth k t 0) s); [congruence|]. reflexivity.
Qed.
Lemma assign_pure_length size probs G : forall cnt, length (assign_pure size probs G cnt) = length G.
Proof. induction G as [|s t IH]; intros cnt; cbn [assign_pure length]; [reflexivity|]. rewrite IH. reflexivity. Qed.

Lemma occ_prefix_lt (G : list Z) : forall k, (k < length G)%nat -> (cnt_occ (firstn k G) (nth k G 0%Z) < cnt_occ G (nth k G 0%Z))%nat.
Proof.
  induction G as [|s t IH]; intros k Hk; [cbn in Hk; lia|]. destruct k as [|k]; cbn [firstn nth count_occ].
  - destruct (Z.eq_dec s s); [lia|congruence].
  - specialize (IH k ltac:(cbn in Hk; lia)). destruct (Z.eq_dec s (nth k t 0)); lia.
Qed.

Lemma occurrence_exists (G : list Z) s : forall j, (j < cnt_occ G s)%nat ->
  exists k, (k < length G)%nat /\ nth k G 0 = s /\ cnt_occ (firstn k G) s = j.
Proof.
  induction G as [|x t IH]; intros j Hj; [cbn in Hj; lia|]. cbn [count_occ] in Hj.
  destruct (Z.eq_dec x s) as [E|E].
  - destruct j as [|j].
    + exists 0%nat. cbn [length nth firstn count_occ]. repeat split; [lia|exact E].
    + destruct (IH j ltac:(lia)) as (k & Hk & Hn & Hc). exists (S k). cbn [length nth firstn count_occ].
      destruct (Z.eq_dec x s); [|congruence]. repeat split; [lia|exact Hn|lia].
  - destruct (IH j Hj) as (k & Hk & Hn & Hc). exists (S k). cbn [length nth firstn count_occ].
    destruct (Z.eq_dec x s); [congruence|]. repeat split; [lia|exact Hn|exact Hc].
Qed.

Lemma in_skipn_nth {A} (l : list A) d n e : In e (skipn n l) -> exists k, (n <= k < length l)%nat /\ nth k l d = e.
Proof.
  revert n. induction l as [|x t IH]; intros n H; [rewrite skipn_nil in H; contradiction|].
  destruct n as [|n]; cbn [skipn] in H.
  - apply (In_nth _ _ d) in H as (k & Hk & E). exists k. split; [lia|exact E].
  - destruct (IH n H) as (k & Hk & E). exists (S k). cbn [length nth]. split; [lia|exact E].
Qed.

Lemma find_entry_some l : forall i pred e, In e l -> pred e = true -> find_entry l i pred <> None.
Proof.
  induction l as [|x t IH]; intros i pred e Hin Hp; [contradiction|]. cbn [find_entry].
  destruct (pred x) eqn:Ex; [discriminate|]. destruct Hin as [->|Hin]; [congruence|]. eapply IH; eassumption.
Qed.
Lemma min_base_some l : forall i s best e, In e l -> e_sym e = s -> min_base l i s best <> None.
Proof.
  assert (Keep : forall l0 i s b, b <> None -> min_base l0 i s b <> None).
  { induction l0 as [|x t IH]; intros i s b Hb; cbn [min_base]; [exact Hb|]. apply IH.
    destruct (e_sym x =? s); [|exact Hb]. destruct b as [[bi be]|]; [destruct (_ <? _); discriminate|discriminate]. }
  induction l as [|x t IH]; intros i s best e Hin Hs; [contradiction|]. cbn [min_base]. destruct Hin as [->|Hin].
  - apply Keep. rewrite Hs, Z.eqb_refl. destruct best as [[bi be]|]; [destruct (_ <? _); discriminate|discriminate].
  - eapply IH; eassumption.
Qed.

Lemma weight_ge_cneg probs : Forall (fun p => -1 <= p) probs -> cneg probs <= weight probs.
Proof.
  induction 1 as [|p t Hp _ IH]; cbn [cneg weight]; [lia|]. unfold pw. destruct (Z.eqb_spec p (-1)); lia.
Qed.

Lemma covers_intro D s : 0 < t_len D ->
  (forall idx, 0 <= idx < t_len D ->
     exists e, In e (t_decode D) /\ e_sym e = s /\ e_base e <= idx < e_base e + 2 ^ e_bits e) -> covers D s.
Proof.
  intros Hl H. split.
  - destruct (H 0 ltac:(lia)) as (e & Hin & Hs & _). eapply min_base_some; eassumption.
  - intros idx Hidx. destruct (H idx Hidx) as (e & Hin & Hs & Hr). eapply find_entry_some; [exact Hin|].
    rewrite Hs, Z.eqb_refl. cbn [andb]. apply andb_true_intro. split; lia.
Qed.

(** the states below [neg] are the orbit elements below [neg], which spreading writes in orbit order: read in state
    order they carry a permutation of [syms probs 0] *)
Lemma spread_below al probs neg dec1 : 5 <= al <= 9 -> 0 <= neg <= 2 ^ al -> Z.of_nat (length dec1) = 2 ^ al ->
  Z.of_nat (length (syms probs 0)) = neg ->
  exists dec2, spread probs 0 0 neg (2 ^ al) dec1 = ROk dec2 /\ Z.of_nat (length dec2) = 2 ^ al /\
    (forall i, neg <= i -> nth_e dec2 i = nth_e dec1 i) /\
    Permutation (syms probs 0) (map (sym_at dec2) (map Z.of_nat (seq 0 (Z.to_nat neg)))).
Proof.
  intros Hal Hneg L1 LS. set (size := 2 ^ al) in *. assert (Hsz : 0 < size) by (apply Z.pow_pos_nonneg; lia).
  set (N := Z.to_nat size). assert (HN : Z.of_nat N = size) by (unfold N; lia).
  destruct (orbit_facts al Hal) as (Ond & Orange & Olen & Ocyc & (Ot & EO)). fold size in Ond, Orange, Olen, Ocyc, EO. fold N in Ond, Orange, Olen, Ocyc, EO.
  set (O := orbit N 0 size) in *. set (SY := syms probs 0) in *.
  destruct (smalls_count neg O N Ond Olen ltac:(intros x Hx; rewrite HN; apply Orange; exact Hx) ltac:(lia)) as (Vnd & Vlen & Vperm).
  set (V := smalls neg O) in *.
  assert (Fin : forall dec2, map (sym_at dec2) V = SY -> Permutation SY (map (sym_at dec2) (map Z.of_nat (seq 0 (Z.to_nat neg))))).
  { intros dec2 <-. apply Permutation_map. exact Vperm. }
  destruct (Z.eq_dec neg 0) as [En0|En0].
  - assert (ES : SY = []) by (destruct SY; [reflexivity|cbn [length] in LS; lia]).
    exists dec1. rewrite spread_nothing by exact ES. split; [reflexivity|]. split; [exact L1|]. split; [reflexivity|]. apply Fin.
    assert (V = []) by (destruct V; [reflexivity|cbn [length] in Vlen; lia]). rewrite H, ES. reflexivity.
  - (* the future of position 0 is the rest of the orbit, closed by 0 itself *)
    assert (Hs0 : small neg 0 = true) by (unfold small; destruct (Z.ltb_spec 0 neg); [reflexivity|lia]).
    set (l := Ot ++ [0]).
    assert (Hch : chain_from size 0 l).
    { unfold l. apply chain_app.
      - pose proof (orbit_chain (pred N) 0 size) as Hc. replace (S (pred N)) with N in Hc by lia. fold O in Hc. rewrite EO in Hc. exact Hc.
      - rewrite <- EO. symmetry. exact Ocyc. }
    assert (EV : V = 0 :: smalls neg Ot) by (unfold V; rewrite EO; unfold smalls; cbn [filter]; rewrite Hs0; reflexivity).
    assert (Esl : smalls neg l = smalls neg Ot ++ [0]) by (unfold l, smalls; rewrite filter_app; cbn [filter]; rewrite Hs0; reflexivity).
    assert (Lsl : length (smalls neg l) = length V) by (rewrite Esl, EV, app_length; cbn [length]; lia).
    assert (Ll : (length l <= Z.to_nat size)%nat).
    { unfold l. rewrite app_length. cbn [length]. apply (f_equal (@length Z)) in EO. rewrite Olen in EO. cbn [length] in EO. fold N. lia. }
    exists (write_list dec1 (combine V SY)).
    rewrite (spread_walk size neg Hsz Hneg probs 0 0 l dec1 Hs0 ltac:(lia) Hch ltac:(fold SY; lia) Ll L1).
    fold SY. replace (firstn (length SY) (0 :: smalls neg l)) with V.
    2:{ rewrite Esl. replace (0 :: smalls neg Ot ++ [0]) with (V ++ [0]) by (rewrite EV; reflexivity).
        rewrite firstn_app. replace (length SY - length V)%nat with 0%nat by lia. cbn [firstn]. rewrite app_nil_r. rewrite firstn_all2 by lia. reflexivity. }
    assert (Vr : Forall (fun p => 0 <= p < Z.of_nat (length dec1)) V).
    { apply Forall_forall. intros x Hx. apply filter_In in Hx as (Hx & _). rewrite L1. apply Orange. exact Hx. }
    split; [reflexivity|]. split; [rewrite write_list_length; exact L1|].
    split; [|apply Fin, map_sym_at_combine; [lia|exact Vnd|exact Vr]].
    intros i Hi. apply write_list_other; [lia| |].
    + apply Forall_forall. intros [p s] Hps. apply in_combine_l in Hps. cbn [fst]. rewrite Forall_forall in Vr. specialize (Vr p Hps). lia.
    + rewrite map_fst_combine by lia. intros Hin. apply filter_In in Hin as (_ & Hin). unfold small in Hin. lia.
Qed.

Lemma mk_entry_range al p j s : 0 <= al -> 1 <= p <= 2 ^ al -> 0 <= j < p ->
  let e := mk_entry (2 ^ al) p j s in 0 <= e_bits e <= al /\ 0 <= e_base e /\ e_base e + 2 ^ e_bits e <= 2 ^ al.
Proof.
  intros Ha Hp Hj. pose proof (state_range_inside al p j Ha Hp Hj) as R. unfold mk_entry.
  destruct (calc_baseline_and_numbits (2 ^ al) p j) as [bl nb]. exact R.
Qed.

Lemma mk_entry_sym size p j s : e_sym (mk_entry size p j s) = s.
Proof. unfold mk_entry. destruct (calc_baseline_and_numbits size p j). reflexivity. Qed.

Lemma assign_in_state_order al probs neg dec2 : 0 <= al -> (length probs <= 256)%nat ->
  0 <= neg <= 2 ^ al -> Z.of_nat (length dec2) = 2 ^ al ->
  Permutation (syms probs 0) (map (sym_at dec2) (map Z.of_nat (seq 0 (Z.to_nat neg)))) ->
  exists c' out,
    assign (Z.to_nat neg) 0 (2 ^ al) al probs (zeros (length probs)) dec2 = ROk (c', out ++ skipn (Z.to_nat neg) dec2) /\
    length out = Z.to_nat neg /\
    (forall i, (i < length probs)%nat -> nth i probs 0 <= 2 ^ al) /\
    (forall e, In e out -> exists i j, (i < length probs)%nat /\ 0 <= j < nth i probs 0 /\
       e = mk_entry (2 ^ al) (nth i probs 0) j (Z.of_nat i)) /\
    (forall i j, (i < length probs)%nat -> 0 <= j < nth i probs 0 -> In (mk_entry (2 ^ al) (nth i probs 0) j (Z.of_nat i)) out).
Proof.
  intros Hal Hlen Hneg L2 HG. set (size := 2 ^ al) in *.
  set (G := map (sym_at dec2) (map Z.of_nat (seq 0 (Z.to_nat neg)))) in *.
  assert (LG : length G = Z.to_nat neg) by (unfold G; rewrite !map_length, seq_length; reflexivity).
  assert (Gcount : forall i, (i < length probs)%nat -> cnt_occ G (Z.of_nat i) = Z.to_nat (nth i probs 0)).
  { intros i Hi. rewrite <- (proj1 (Permutation_count_occ Z.eq_dec _ _) HG). apply (syms_count probs 0 i); lia. }
  assert (Hle : forall i, (i < length probs)%nat -> nth i probs 0 <= size).
  { intros i Hi. pose proof (Gcount i Hi). pose proof (count_occ_bound Z.eq_dec (Z.of_nat i) G). lia. }
  set (out := assign_pure size probs G (nth_z (zeros (length probs)))).
  assert (Lout : length out = Z.to_nat neg) by (unfold out; rewrite assign_pure_length; exact LG).
  (* the k-th entry is the j-th state of its symbol i *)
  assert (Hentry : forall k, (k < Z.to_nat neg)%nat ->
            let s := nth k G 0 in let i := Z.to_nat s in let j := Z.of_nat (cnt_occ (firstn k G) s) in
            (i < length probs)%nat /\ s = Z.of_nat i /\ 0 <= j < nth i probs 0 /\ nth k out entry0 = mk_entry size (nth i probs 0) j s).
  { intros k Hk s i j. assert (Hin : In s G) by (apply nth_In; lia).
    pose proof (syms_range probs 0 s ltac:(lia) ltac:(lia) (Permutation_in _ (Permutation_sym HG) Hin)) as Hr.
    assert (Es : s = Z.of_nat i) by (unfold i; lia).
    pose proof (occ_prefix_lt G k ltac:(lia)) as Hlt. fold s in Hlt. rewrite Es, (Gcount i ltac:(lia)), <- Es in Hlt.
    split; [lia|]. split; [exact Es|]. split; [unfold j; lia|].
    unfold out. rewrite assign_pure_nth by lia. rewrite nth_z_zeros. reflexivity. }
  assert (Hfrom : forall e, In e out -> exists i j, (i < length probs)%nat /\ 0 <= j < nth i probs 0 /\
                    e = mk_entry size (nth i probs 0) j (Z.of_nat i)).
  { intros e He. apply (In_nth _ _ entry0) in He as (k & Hk & <-). rewrite Lout in Hk.
    destruct (Hentry k Hk) as (Hi & Es & Hj & E). eexists _, _. rewrite <- Es. split; [exact Hi|]. split; [exact Hj|exact E]. }
  destruct (assign_spec (Z.to_nat neg) 0 size al probs (zeros (length probs)) dec2 ltac:(lia) (zeros_length _)) as (c' & Eas).
  { apply Forall_forall. intros s Hs. apply (In_nth _ _ 0) in Hs as (k & Hk & <-). destruct (Hentry k ltac:(rewrite <- LG; exact Hk)) as (Hi & Es & Hj & _).
    fold G. unfold nth_z. lia. }
  { apply Forall_forall. intros e He. destruct (Hfrom e He) as (i & j & Hi & Hj & ->).
    apply (mk_entry_range al _ j _ Hal); [split; [lia|apply Hle, Hi]|exact Hj]. }
  exists c', out. split; [exact Eas|]. split; [exact Lout|]. split; [exact Hle|]. split; [exact Hfrom|].
  intros i j Hi Hj. pose proof (Gcount i Hi) as Hcs.
  destruct (occurrence_exists G (Z.of_nat i) (Z.to_nat j) ltac:(lia)) as (k & Hk & Hn & Hc).
  destruct (Hentry k ltac:(lia)) as (_ & _ & _ & E). rewrite Hn, Hc, Nat2Z.id, Z2Nat.id in E by lia.
  rewrite <- E. apply nth_In. lia.
Qed.

Theorem general_table_entries al probs ms :
  5 <= al <= 9 -> Forall (fun p => -1 <= p) probs -> weight probs = 2 ^ al ->
  (length probs <= 256)%nat -> Z.of_nat (length probs) <= ms + 1 ->
  exists D, fse_build_from_probabilities (fse_new ms) al probs = ROk D /\ Z.of_nat (length (t_decode D)) = 2 ^ al /\
    (forall i, (i < length probs)%nat -> nth i probs 0 <= 2 ^ al) /\
    (forall e, In e (t_decode D) -> exists i, (i < length probs)%nat /\
       (nth i probs 0 = -1 /\ e = {| e_base := 0; e_bits := al; e_sym := Z.of_nat i |} \/
        exists j, 0 <= j < nth i probs 0 /\ e = mk_entry (2 ^ al) (nth i probs 0) j (Z.of_nat i))) /\
    (forall i, (i < length probs)%nat -> nth i probs 0 <> 0 -> covers D (Z.of_nat i)).
Proof.
  intros Hal Hp Hw Hlen Hms.
  set (size := 2 ^ al). assert (Hsz : 0 < size) by (apply Z.pow_pos_nonneg; lia).
  pose proof (cneg_nonneg probs) as Hc0. pose proof (weight_ge_cneg probs Hp) as Hcw.
  set (neg := size - cneg probs). assert (Hneg : 0 <= neg <= size) by (unfold neg; lia).
  set (dec0 := entries0 (Z.to_nat size)).
  assert (L0 : Z.of_nat (length dec0) = size) by (unfold dec0; rewrite (proj2 (entries0_ok _)); lia).
  destruct (place_negative_spec probs 0 al size dec0 ltac:(lia)) as (dec1 & E1 & L1 & _ & Hin1 & Hsym1). fold neg in E1, Hin1, Hsym1.
  assert (Hmod : forall k, (k < length probs)%nat -> (0 + Z.of_nat k) mod 256 = Z.of_nat k) by (intros k Hk; apply Z.mod_small; lia).
  destruct (spread_below al probs neg dec1 Hal Hneg ltac:(lia)) as (dec2 & E2 & L2 & Hkeep2 & HG).
  { rewrite syms_length by exact Hp. unfold neg. lia. }
  destruct (assign_in_state_order al probs neg dec2 ltac:(lia) Hlen Hneg L2 HG) as (c' & out & Eas & Lout & Hle & Hfrom & Hall).
  fold size in E2, L2, Eas, Hle, Hfrom, Hall.
  set (D := {| t_max_symbol := ms; t_decode := out ++ skipn (Z.to_nat neg) dec2; t_acc_log := al; t_probs := probs; t_counter := c' |}).
  exists D. split.
  { unfold fse_build_from_probabilities, build_decoding_table, fse_new. cbn [t_max_symbol].
    destruct (Z.eqb_spec al 0); [lia|]. destruct (Z.ltb_spec (ms + 1) (Z.of_nat (length probs))); [lia|].
    fold size. fold dec0. rewrite E1. cbn [rbind]. rewrite E2. cbn [rbind]. rewrite Eas. cbn [rbind]. reflexivity. }
  assert (HlenD : t_len D = size) by (unfold t_len; cbn [t_acc_log D]; destruct (Z.eqb_spec al 0); [lia|reflexivity]).
  cbn [t_decode D]. split; [rewrite app_length, skipn_length, Lout; lia|]. split; [exact Hle|]. split.
  - intros e He. apply in_app_or in He as [He|He].
    + destruct (Hfrom e He) as (i & j & Hi & Hj & ->). exists i. split; [exact Hi|]. right. exists j. split; [exact Hj|reflexivity].
    + (* entries at and above neg are the "less than one" slots *)
      destruct (in_skipn_nth dec2 entry0 _ e He) as (k & Hk & <-).
      replace (nth k dec2 entry0) with (nth_e dec2 (Z.of_nat k)) by (unfold nth_e; rewrite Nat2Z.id; reflexivity).
      rewrite Hkeep2 by lia. destruct (Hin1 (Z.of_nat k) ltac:(lia)) as (i & Hi & Em & ->). rewrite Hmod by exact Hi.
      exists i. split; [exact Hi|]. left. split; [exact Em|reflexivity].
  - intros i Hi Hpi. apply covers_intro; rewrite HlenD; [exact Hsz|]. intros idx Hidx.
    rewrite Forall_forall in Hp. pose proof (Hp (nth i probs 0) ltac:(apply nth_In; exact Hi)) as Hpi1.
    destruct (Z.eq_dec (nth i probs 0) (-1)) as [Em|Em].
    + (* a "less than one" symbol: one state with the full range *)
      destruct (Hsym1 i Hi Em) as (j & Hj & Ej). rewrite Hmod in Ej by exact Hi.
      exists (nth_e dec1 j). split; [|rewrite Ej; cbn [e_sym e_base e_bits]; fold size; split; [reflexivity|lia]].
      apply in_or_app. right. rewrite <- Hkeep2 by lia. unfold nth_e.
      replace (Z.to_nat j) with (Z.to_nat neg + (Z.to_nat j - Z.to_nat neg))%nat by lia. rewrite <- nth_skipn_add. apply nth_In. rewrite skipn_length. lia.
    + destruct (states_cover al (nth i probs 0) idx ltac:(lia) ltac:(split; [lia|apply Hle, Hi]) Hidx) as (k & Hk & Hr).
      fold size in Hr. eexists. split; [apply in_or_app; left; apply (Hall i k Hi Hk)|].
      unfold mk_entry. destruct (calc_baseline_and_numbits size (nth i probs 0) k) as [bl nb]. split; [reflexivity|exact Hr].
Qed.

Corollary general_table_symbols al probs ms D :
  5 <= al <= 9 -> Forall (fun p => -1 <= p) probs -> weight probs = 2 ^ al ->
  (length probs <= 256)%nat -> Z.of_nat (length probs) <= ms + 1 ->
  fse_build_from_probabilities (fse_new ms) al probs = ROk D ->
  forall e, In e (t_decode D) -> 0 <= e_sym e < Z.of_nat (length probs).
Proof.
  intros Hal Hp Hw Hlen Hms Eb e He. destruct (general_table_entries al probs ms Hal Hp Hw Hlen Hms) as (D' & Eb' & _ & _ & Hfrom & _).
  rewrite Eb in Eb'. injection Eb' as <-. destruct (Hfrom e He) as (i & Hi & [(_ & ->)|(j & _ & ->)]); [cbn [e_sym]|rewrite mk_entry_sym]; lia.
Qed.

Theorem general_table_full al probs ms :
  5 <= al <= 9 -> Forall (fun p => -1 <= p) probs -> weight probs = 2 ^ al ->
  (length probs <= 256)%nat -> Z.of_nat (length probs) <= ms + 1 ->
  exists D, fse_build_from_probabilities (fse_new ms) al probs = ROk D /\
    (forall e, In e (t_decode D) -> 0 <= e_bits e <= al /\ 0 <= e_base e /\ e_base e + 2 ^ e_bits e <= 2 ^ al) /\
    Z.of_nat (length (t_decode D)) = 2 ^ al /\
    (forall i, (i < length probs)%nat -> nth i probs 0 <> 0 -> covers D (Z.of_nat i)) /\
    (* where every entry comes from: a "less than one" slot, or the k-th state of a symbol of probability p *)
    (forall e, In e (t_decode D) -> e_bits e = al \/
       exists p k, In p probs /\ 1 <= p /\ 0 <= k < p /\ e_bits e = snd (calc_baseline_and_numbits (2 ^ al) p k)).
Proof.
  intros Hal Hp Hw Hlen Hms. destruct (general_table_entries al probs ms Hal Hp Hw Hlen Hms) as (D & Eb & Hl & Hle & Hfrom & Hc).
  exists D. split; [exact Eb|]. split; [|split; [exact Hl|split; [exact Hc|]]]; intros e He; destruct (Hfrom e He) as (i & Hi & [(_ & ->)|(j & Hj & ->)]).
  - cbn [e_bits e_base]. pose proof (Z.pow_pos_nonneg 2 al). lia.
  - apply (mk_entry_range al _ j _ ltac:(lia)); [split; [lia|apply Hle, Hi]|exact Hj].
  - left. reflexivity.
  - right. exists (nth i probs 0), j. split; [apply nth_In; exact Hi|]. split; [lia|]. split; [exact Hj|].
    unfold mk_entry. destruct (calc_baseline_and_numbits (2 ^ al) (nth i probs 0) j). reflexivity.
Qed.

Theorem general_table al probs ms :
  5 <= al <= 9 -> Forall (fun p => -1 <= p) probs -> weight probs = 2 ^ al ->
  (length probs <= 256)%nat -> Z.of_nat (length probs) <= ms + 1 ->
  exists D, fse_build_from_probabilities (fse_new ms) al probs = ROk D /\
    (forall e, In e (t_decode D) -> 0 <= e_bits e <= al /\ 0 <= e_base e /\ e_base e + 2 ^ e_bits e <= 2 ^ al) /\
    Z.of_nat (length (t_decode D)) = 2 ^ al /\
    (forall i, (i < length probs)%nat -> nth i probs 0 <> 0 -> covers D (Z.of_nat i)).
Proof.
  intros Hal Hp Hw Hlen Hms. destruct (general_table_full al probs ms Hal Hp Hw Hlen Hms) as (D & A & B & C & E & _).
  exists D. split; [exact A|]. split; [exact B|]. split; [exact C|exact E].
Qed.
