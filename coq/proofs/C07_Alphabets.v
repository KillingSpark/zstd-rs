(** C07: the hypothesis of [reset_eq_fresh] -- every table still has the alphabet bound it was created with -- is an
    invariant of every operation of the decoder model, hence holds in every reachable decoder state. *)
Require Import Zrs.lib.RsPrelude Zrs.proofs.ModelFacts Zrs.lib.ResFacts Zrs.gen.Generated Zrs.model.Headers Zrs.model.BitIO Zrs.model.FseDec Zrs.model.HufDec
  Zrs.model.BlockDec Zrs.model.FrameDec.
Require Import Zrs.proofs.C07_Reuse.

Lemma fse_build_decoder_max t src ml t' n : fse_build_decoder t src ml = ROk (t', n) -> t_max_symbol t' = t_max_symbol t.
Proof.
  unfold fse_build_decoder. intros H. bind_inv H. destruct a as [[al probs] bytes]. bind_inv H. destruct a as [dec counter].
  injection H as <- _. reflexivity.
Qed.

Lemma update_one_table_max mode src t rle a b c d e t' rle' n :
  update_one_table mode src t rle a b c d e = ROk (t', rle', n) -> t_max_symbol t' = t_max_symbol t.
Proof.
  unfold update_one_table. intros H.
  destruct (mode =? 2).
  { bind_inv H. destruct a0 as [t1 by1]. injection H as <- _ _. eapply fse_build_decoder_max; eassumption. }
  destruct (mode =? 1).
  { destruct src as [|x xs]; [discriminate|]. destruct (b <? x); [discriminate|]. injection H as <- _ _. reflexivity. }
  destruct (mode =? 0).
  { bind_inv H. injection H as <- _ _. eapply fse_build_from_probabilities_max; eassumption. }
  injection H as <- _ _. reflexivity.
Qed.

Definition fse_alphabets_ok (s : fse_scratch) : Prop :=
  t_max_symbol (fs_of s) = MAX_OFFSET_CODE /\ t_max_symbol (fs_ll s) = MAX_LITERAL_LENGTH_CODE /\
  t_max_symbol (fs_ml s) = MAX_MATCH_LENGTH_CODE.

Lemma maybe_update_max modes src s s' n : fse_alphabets_ok s -> maybe_update_fse_tables modes src s = ROk (s', n) -> fse_alphabets_ok s'.
Proof.
  intros (A & B & C) H. unfold maybe_update_fse_tables in H. destruct modes as [m|]; [|discriminate]. cbv zeta in H.
  bind_inv H. destruct a as [[ll llr] n1]. destruct (zlen src <? n1); [discriminate|].
  bind_inv H. destruct a as [[of ofr] n2]. destruct (zlen src <? n1 + n2); [discriminate|].
  bind_inv H. destruct a as [[ml mlr] n3]. injection H as <- _.
  apply update_one_table_max in E, E0, E1. unfold fse_alphabets_ok. cbn [fs_of fs_ll fs_ml].
  rewrite E, E0, E1. repeat split; assumption.
Qed.

Lemma decode_sequences_max n modes src s s' seqs : fse_alphabets_ok s -> decode_sequences n modes src s = ROk (s', seqs) -> fse_alphabets_ok s'.
Proof.
  intros Hs H. unfold decode_sequences in H. bind_inv H. destruct a as [s1 used].
  pose proof (maybe_update_max _ _ _ _ _ Hs E) as H1.
  destruct (zlen src <? used); [discriminate|].
  destruct (rbr_skip_padding (rbr_new (drop_z used src))) as [br|]; [|discriminate].
  bind_inv H. destruct a as [ll br1]. bind_inv H. destruct a as [of br2]. bind_inv H. destruct a as [ml br3].
  bind_inv H. destruct a as [acc br4]. destruct (0 <? rbr_bits_remaining br4); [discriminate|].
  injection H as <- _. exact H1.
Qed.

Lemma read_weights_max t src ws ft n : read_weights t src = ROk (ws, ft, n) -> t_max_symbol ft = t_max_symbol (ht_fse t).
Proof.
  unfold read_weights. intros H. destruct src as [|header fs]; [discriminate|].
  destruct (header <? 128).
  - destruct (Z.of_nat (length fs) <? header); [discriminate|].
    bind_inv H. destruct a as [ft0 used]. destruct (header <? used); [discriminate|].
    cbv zeta in H. destruct (_ <? _) in H; [discriminate|].
    destruct (rbr_skip_padding _) as [br|] in H; [|discriminate].
    bind_inv H. destruct a as [s1 br1]. bind_inv H. destruct a as [s2 br2]. bind_inv H.
    injection H as _ <- _. eapply fse_build_decoder_max; eassumption.
  - cbv zeta in H. destruct (_ <? _) in H; [discriminate|]. injection H as _ <- _. reflexivity.
Qed.

Lemma huf_build_decoder_max t src t' n : huf_build_decoder t src = ROk (t', n) -> t_max_symbol (ht_fse t') = t_max_symbol (ht_fse t).
Proof.
  unfold huf_build_decoder. intros H. bind_inv H. destruct a as [[ws ft] bytes]. bind_inv H.
  destruct a as [[[[dec mb] bits] ranks] idxs]. injection H as <- _. cbn [ht_fse]. eapply read_weights_max; eassumption.
Qed.

Lemma decode_literals_max sec ht src ht' lits n : decode_literals sec ht src = ROk (ht', lits, n) ->
  t_max_symbol (ht_fse ht') = t_max_symbol (ht_fse ht).
Proof.
  unfold decode_literals. intros H.
  destruct (ls_type sec =? 0).
  { destruct (zlen src <? ls_regen sec); [discriminate|]. injection H as <- _ _. reflexivity. }
  destruct (ls_type sec =? 1).
  { destruct src; [discriminate|]. injection H as <- _ _. reflexivity. }
  destruct (ls_comp sec) as [cs|]; [|discriminate]. destruct (ls_streams sec) as [ns|]; [|discriminate].
  destruct (zlen src <? cs); [discriminate|]. cbv zeta in H.
  destruct (ls_type sec =? 2) eqn:Et.
  - bind_inv H. destruct a as [ht1 br]. pose proof (huf_build_decoder_max _ _ _ _ E) as M.
    destruct (zlen (take_z cs src) <? br); [discriminate|].
    bind_inv H. destruct a as [o b2]. destruct (negb _) in H; [discriminate|]. injection H as <- _ _. exact M.
  - destruct (ht_max_bits ht =? 0); [discriminate|]. cbn [rbind] in H.
    destruct (zlen (take_z cs src) <? 0); [discriminate|].
    bind_inv H. destruct a as [o b2]. destruct (negb _) in H; [discriminate|]. injection H as <- _ _. reflexivity.
Qed.

Lemma scratch_alphabets_split sc :
  scratch_alphabets_ok sc <-> fse_alphabets_ok (sc_fse sc) /\ t_max_symbol (ht_fse (sc_huf sc)) = 255.
Proof. unfold scratch_alphabets_ok, fse_alphabets_ok. tauto. Qed.

Lemma decompress_block_alphabets cs sc raw sc' : scratch_alphabets_ok sc -> decompress_block cs sc raw = ROk sc' -> scratch_alphabets_ok sc'.
Proof.
  rewrite !scratch_alphabets_split. intros [F D] H. unfold decompress_block in H.
  destruct (lit_header_parse raw) as [[[[[used ty] regen] comp] streams]|e|e]; try discriminate.
  cbv zeta in H. destruct (MAX_BLOCK_SIZE <? regen); [discriminate|].
  destruct (zlen (drop_z used raw) <? _); [discriminate|].
  bind_inv H. destruct a as [[ht lits] used_lit]. apply decode_literals_max in E. rewrite <- E in D.
  destruct (negb (regen =? zlen lits)); [discriminate|]. destruct (negb (used_lit =? _)); [discriminate|].
  destruct (sequences_header_parse 0 None _) as [[[useq nseq] modes]|e|e]; try discriminate.
  destruct (negb (_ =? cs)); [discriminate|].
  destruct (negb (nseq =? 0)).
  - bind_inv H. destruct a as [fs seqs]. bind_inv H. destruct a as [buf hist]. injection H as <-.
    split; [exact (decode_sequences_max _ _ _ _ _ _ F E0)|exact D].
  - destruct (negb (_ =? 0)); [discriminate|]. injection H as <-. split; assumption.
Qed.

Lemma decode_block_content_alphabets ty d c sc src sc' n rest : scratch_alphabets_ok sc ->
  decode_block_content ty d c sc src = ROk (sc', n, rest) -> scratch_alphabets_ok sc'.
Proof.
  intros Hs H. unfold decode_block_content in H.
  destruct (ty =? 1); [|destruct (ty =? 0); [|destruct (ty =? 2); [|discriminate]]];
    (destruct (read_exact _ src) as [[b r]|]; [|discriminate]).
  1, 2: injection H as <- _ _; exact Hs.
  bind_inv H. injection H as <- _ _. eapply decompress_block_alphabets; eassumption.
Qed.

Definition state_alphabets_ok (d : fdec) : Prop := forall s, fd_state d = Some s -> scratch_alphabets_ok (fr_scratch s).

Lemma loop_alphabets fuel : forall s src strat lb bb s' rest, scratch_alphabets_ok (fr_scratch s) ->
  decode_blocks_loop fuel s src strat lb bb = ROk (s', rest) -> scratch_alphabets_ok (fr_scratch s').
Proof.
  induction fuel as [|f IH]; intros s src strat lb bb s' rest Hs H; [discriminate|]. cbn [decode_blocks_loop] in H.
  bind_inv H. destruct a as [[[[last ty] d] c] r1]. bind_inv H. destruct a as [[sc nb] r2].
  pose proof (decode_block_content_alphabets _ _ _ _ _ _ _ _ Hs E0) as H1.
  destruct last.
  - destruct (checksum_flag _).
    + destruct (read_exact 4 r2) as [[ck r3]|]; [|discriminate]. injection H as <- _. exact H1.
    + injection H as <- _. exact H1.
  - match type of H with (if ?c then _ else _) = _ => destruct c end; [injection H as <- _; exact H1|].
    eapply IH; [|exact H]. exact H1.
Qed.

(** every public operation of the decoder model keeps the invariant *)
Theorem reset_keeps_alphabets d src d' rest ev : state_alphabets_ok d -> fdec_reset d src = ROk (d', rest, ev) -> state_alphabets_ok d'.
Proof.
  intros Hd H. destruct (fdec_reset_ok _ _ _ _ _ H) as (h & n & w & sc & ud & _ & Hl & -> & _).
  intros s0 [= <-]. cbn [fr_scratch new_state].
  assert (Hsc : scratch_alphabets_ok (reset_scratch d w)) by (rewrite (reset_scratch_eq_new d w Hd); apply scratch_new_alphabets).
  destruct (load_dict_ok _ _ _ _ _ Hl) as [->|(dd & _ & ->)]; [|apply init_from_dict_alphabets]; exact Hsc.
Qed.

Theorem decode_blocks_keeps_alphabets d src strat d' rest fin : state_alphabets_ok d ->
  fdec_decode_blocks d src strat = ROk (d', rest, fin) -> state_alphabets_ok d'.
Proof.
  intros Hd H. unfold fdec_decode_blocks in H. destruct (fd_state d) as [s|] eqn:Es; [|discriminate].
  bind_inv H. destruct a as [s' r]. injection H as <- _ _. intros s0 [= <-].
  eapply loop_alphabets; [|exact E]. apply Hd. exact Es.
Qed.

Theorem force_dict_keeps_alphabets d id d' : state_alphabets_ok d -> fdec_force_dict d id = ROk d' -> state_alphabets_ok d'.
Proof.
  intros Hd H. unfold fdec_force_dict in H. destruct (fd_state d) as [s|] eqn:Es; [|discriminate].
  destruct (find _ _) as [dd|]; [|discriminate]. injection H as <-. intros s0 [= <-].
  apply init_from_dict_alphabets, Hd, Es.
Qed.

Corollary reset_eq_fresh_reachable d src : state_alphabets_ok d ->
  match fdec_reset d src,
        fdec_reset {| fd_state := None; fd_dicts := fd_dicts d; fd_max_window := fd_max_window d |} src with
  | ROk (d1, r1, _), ROk (d2, r2, _) => d1 = d2 /\ r1 = r2
  | RErr e1, RErr e2 => e1 = e2
  | RPanic e1, RPanic e2 => e1 = e2
  | _, _ => False
  end.
Proof. exact (reset_eq_fresh d src). Qed.

(** the drain paths only replace the byte buffer *)
Lemma set_buf_keeps_alphabets d s b : state_alphabets_ok d -> fd_state d = Some s ->
  state_alphabets_ok (fdec_with_state d (st_set_buf s b)).
Proof. intros Hd Es s0 [= <-]. exact (Hd s Es). Qed.

Lemma collect_keeps_alphabets d : state_alphabets_ok d -> state_alphabets_ok (snd (fdec_collect d)).
Proof.
  intros Hd. unfold fdec_collect. destruct (fd_state d) as [s|] eqn:Es; [|exact Hd].
  destruct (st_is_finished s).
  - destruct (db_drain_all (st_buf s)) as [out b]. apply set_buf_keeps_alphabets; assumption.
  - destruct (db_can_drain_to_window (st_buf s)) as [n|]; [|exact Hd].
    destruct (db_drain_amount (st_buf s) n) as [out b]. apply set_buf_keeps_alphabets; assumption.
Qed.

Lemma read_keeps_alphabets d n : state_alphabets_ok d -> state_alphabets_ok (snd (fdec_read d n)).
Proof.
  intros Hd. unfold fdec_read. destruct (fd_state d) as [s|] eqn:Es; [|exact Hd].
  destruct (if fr_finished s then _ else _) as [out b]. apply set_buf_keeps_alphabets; assumption.
Qed.

Lemma collect_to_writer_keeps_alphabets {St} (sstep : St -> Z -> sink_resp * St) d split st :
  state_alphabets_ok d -> state_alphabets_ok (snd (fst (fst (fdec_collect_to_writer sstep d split st)))).
Proof.
  intros Hd. unfold fdec_collect_to_writer. destruct (fd_state d) as [s|] eqn:Es; [|exact Hd].
  destruct (db_drain_to_sink St sstep (st_buf s) _ split st) as [[[out b] ok] st']. apply set_buf_keeps_alphabets; assumption.
Qed.

(** all states reachable from a new decoder through the public operations, with any arguments and any sink *)
Inductive reachable : fdec -> Prop :=
| R_new : reachable fdec_new
| R_max d m : reachable d -> reachable (fdec_set_max_window d m)
| R_add d dd : reachable d -> reachable (fdec_add_dict d dd)
| R_reset d src d' rest ev : reachable d -> fdec_reset d src = ROk (d', rest, ev) -> reachable d'
| R_force d id d' : reachable d -> fdec_force_dict d id = ROk d' -> reachable d'
| R_blocks d src strat d' rest fin : reachable d -> fdec_decode_blocks d src strat = ROk (d', rest, fin) -> reachable d'
| R_collect d : reachable d -> reachable (snd (fdec_collect d))
| R_read d n : reachable d -> reachable (snd (fdec_read d n))
| R_writer St (sstep : St -> Z -> sink_resp * St) d split st : reachable d ->
    reachable (snd (fst (fst (fdec_collect_to_writer sstep d split st)))).

Theorem reachable_alphabets d : reachable d -> state_alphabets_ok d.
Proof.
  induction 1.
  - intros s [=].
  - exact IHreachable.
  - exact IHreachable.
  - eapply reset_keeps_alphabets; eassumption.
  - eapply force_dict_keeps_alphabets; eassumption.
  - eapply decode_blocks_keeps_alphabets; eassumption.
  - apply collect_keeps_alphabets. assumption.
  - apply read_keeps_alphabets. assumption.
  - apply collect_to_writer_keeps_alphabets. assumption.
Qed.

(** the unconditional form of C07: whatever was done with a decoder before, initialising it for a source gives the
    decoder (or the error) that a never-used decoder with the same dictionaries and limit gives *)
Theorem reused_decoder_equals_fresh d src : reachable d ->
  match fdec_reset d src,
        fdec_reset {| fd_state := None; fd_dicts := fd_dicts d; fd_max_window := fd_max_window d |} src with
  | ROk (d1, r1, _), ROk (d2, r2, _) => d1 = d2 /\ r1 = r2
  | RErr e1, RErr e2 => e1 = e2
  | RPanic e1, RPanic e2 => e1 = e2
  | _, _ => False
  end.
Proof. intros H. exact (reset_eq_fresh d src (reachable_alphabets d H)). Qed.
