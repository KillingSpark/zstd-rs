(** C10: decode_all never accepts leftover bytes that cannot start a frame: an input of one to three bytes (what remains
    after the last frame when a concatenation is cut inside the next magic number, or trailing garbage) is an error;
    and the empty input is the only one on which the frame loop stops. *)
Require Import Zrs.lib.RsPrelude Zrs.model.Headers Zrs.model.BlockDec Zrs.model.FrameDec.

Lemma read_frame_header_short src : (length src < 4)%nat -> read_frame_header src = FhErr "MagicNumberReadError".
Proof. intros H. unfold read_frame_header, take. destruct (Nat.ltb_spec (length src) 4); [reflexivity|lia]. Qed.

Theorem decode_all_rejects_short_tail d input cap : (1 <= length input < 4)%nat ->
  fdec_decode_all d input cap = RErr "MagicNumberReadError".
Proof.
  intros H. unfold fdec_decode_all. cbn [decode_all_outer].
  destruct input as [|x t]; [cbn in H; lia|].
  unfold frame_front at 1. rewrite read_frame_header_short by lia.
  unfold fdec_reset, frame_front. rewrite read_frame_header_short by lia. reflexivity.
Qed.

(** one round of the frame loop: a skippable frame is stepped over, a frame is initialised and decoded *)
Definition frame_step (d : fdec) (input : list Z) (room : Z) (w : list Z) : res (fdec * list Z * Z * list Z) :=
  match frame_front input (fd_max_window d) with
  | inr (_, len) =>
      if zlen (drop_z 8 input) <? len then RErr "FailedToSkipFrame" else ROk (d, drop_z len (drop_z 8 input), room, w)
  | inl _ =>
      let* (d1, rest, _) := fdec_reset d input in decode_all_inner (S (S (length rest))) d1 rest room w
  end.

Lemma outer_step fuel d input room w : input <> [] ->
  decode_all_outer (S fuel) d input room w =
  let* (d1, rest, room1, w1) := frame_step d input room w in decode_all_outer fuel d1 rest room1 w1.
Proof.
  intros Hne. cbn [decode_all_outer]. unfold frame_step. destruct input as [|x t]; [congruence|].
  destruct (frame_front (x :: t) (fd_max_window d)) as [r|[m len]].
  - destruct (fdec_reset d (x :: t)) as [[[d1 rest] ev]|e|e]; reflexivity.
  - destruct (_ <? _); reflexivity.
Qed.

(** the loop only returns normally at a frame boundary with nothing left: a normal return on a non-empty input means
    a first frame (or skippable frame) was fully consumed and the rest was processed by the same loop *)
Theorem decode_all_ok_unfolds fuel d input room w d' out : input <> [] ->
  decode_all_outer (S fuel) d input room w = ROk (d', out) ->
  (exists m len, frame_front input (fd_max_window d) = inr (m, len) /\ len <= zlen (drop_z 8 input) /\
     decode_all_outer fuel d (drop_z len (drop_z 8 input)) room w = ROk (d', out)) \/
  (exists d1 rest ev d2 rest2 room2 w2,
     fdec_reset d input = ROk (d1, rest, ev) /\
     decode_all_inner (S (S (length rest))) d1 rest room w = ROk (d2, rest2, room2, w2) /\
     decode_all_outer fuel d2 rest2 room2 w2 = ROk (d', out)).
Proof.
  intros Hne H. rewrite (outer_step _ _ _ _ _ Hne) in H. unfold frame_step in H.
  destruct (frame_front input (fd_max_window d)) as [r|[m len]].
  - right. destruct (fdec_reset d input) as [[[d1 rest] ev]|e|e]; cbn [rbind] in H; try discriminate.
    destruct (decode_all_inner _ d1 rest room w) as [[[[d2 rest2] room2] w2]|e|e] eqn:Ei; cbn [rbind] in H; try discriminate.
    exists d1, rest, ev, d2, rest2, room2, w2. repeat split; assumption.
  - left. destruct (Z.ltb_spec (zlen (drop_z 8 input)) len) as [Hl|Hl]; [discriminate|].
    exists m, len. repeat split; [lia|exact H].
Qed.
