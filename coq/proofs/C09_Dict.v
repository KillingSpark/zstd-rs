(** C09: dictionary selection at reset *)
Require Import Zrs.lib.RsPrelude Zrs.model.Headers Zrs.model.FseDec Zrs.model.HufDec Zrs.model.BlockDec Zrs.model.FrameDec.
Require Import Zrs.proofs.C07_Reuse.

Lemma find_none_by_id (l : list dictionary) id : (forall dd, In dd l -> d_id dd <> id) -> find (fun x => d_id x =? id) l = None.
Proof.
  induction l as [|x t IH]; intros H; [reflexivity|]. cbn [find].
  destruct (d_id x =? id) eqn:E.
  - exfalso. apply (H x); [left; reflexivity|lia].
  - apply IH. intros dd Hin. apply H. right. exact Hin.
Qed.

Theorem missing_dict_is_error d src h n w rest id :
  frame_front src (fd_max_window d) = inl (ROk (h, n, w, rest)) -> fh_dict_id h = Some id ->
  (forall dd, In dd (fd_dicts d) -> d_id dd <> id) ->
  fdec_reset d src = RErr "DictNotProvided".
Proof.
  intros Hf Hid Hno. rewrite fdec_reset_eq, Hf. cbn [rbind]. unfold load_dict.
  rewrite Hid, (find_none_by_id _ _ Hno). reflexivity.
Qed.

Theorem dict_is_starting_state d src h n w rest id dd :
  frame_front src (fd_max_window d) = inl (ROk (h, n, w, rest)) -> fh_dict_id h = Some id ->
  find (fun x => d_id x =? id) (fd_dicts d) = Some dd ->
  exists d' evs s, fdec_reset d src = ROk (d', rest, evs) /\ fd_state d' = Some s /\
    sc_hist (fr_scratch s) = d_hist dd /\ db_dict (sc_buf (fr_scratch s)) = d_content dd /\
    db_rev (sc_buf (fr_scratch s)) = [] /\
    t_decode (fs_ll (sc_fse (fr_scratch s))) = t_decode (fs_ll (d_fse dd)) /\
    t_decode (fs_of (sc_fse (fr_scratch s))) = t_decode (fs_of (d_fse dd)) /\
    t_decode (fs_ml (sc_fse (fr_scratch s))) = t_decode (fs_ml (d_fse dd)) /\
    ht_decode (sc_huf (fr_scratch s)) = ht_decode (d_huf dd) /\ fr_using_dict s = Some id.
Proof.
  intros Hf Hid Hfind. rewrite fdec_reset_eq, Hf. cbn [rbind]. unfold load_dict. rewrite Hid, Hfind. cbn [rbind].
  do 3 eexists. split; [reflexivity|]. split; [reflexivity|]. cbn. unfold reset_scratch.
  destruct (fd_state d); repeat split.
Qed.

Theorem dict_does_not_outlive_frame sc dd w : scratch_alphabets_ok sc ->
  scratch_reset (scratch_init_from_dict sc dd) w = scratch_new w.
Proof. intros H. apply scratch_reset_eq_new. apply init_from_dict_alphabets. exact H. Qed.
