(** C05 (and the consumption half of C10, the hashing half of C08): invariants of block decoding -- the buffer stays
    well formed, only bytes are appended, one block adds at most 128 KiB, the byte counter equals the bytes taken from
    the source. *)
Require Import Zrs.lib.RsPrelude Zrs.proofs.ModelFacts Zrs.lib.ResFacts Zrs.lib.ListFacts Zrs.gen.Generated Zrs.model.Headers Zrs.model.BitIO Zrs.model.FseDec Zrs.model.BlockDec Zrs.model.FrameDec.
Require Import Zrs.lib.Sweep Zrs.proofs.C06_Drain Zrs.proofs.C14_Tables Zrs.proofs.C14_Headers.

(** buffers related by "only bytes were appended": same dictionary, window, hasher state *)
Definition db_same_meta (b b' : dbuf) : Prop :=
  db_dict b' = db_dict b /\ db_window b' = db_window b /\ db_hashed_rev b' = db_hashed_rev b.

Lemma same_meta_refl b : db_same_meta b b.
Proof. repeat split. Qed.
Lemma same_meta_trans a b c : db_same_meta a b -> db_same_meta b c -> db_same_meta a c.
Proof. intros (A1 & A2 & A3) (B1 & B2 & B3). repeat split; congruence. Qed.

Lemma append_raw_inv b data : db_wf b ->
  db_wf (db_append_raw b data) /\ db_len (db_append_raw b data) = db_len b + Z.of_nat (length data) /\
  db_same_meta b (db_append_raw b data) /\ db_total_out (db_append_raw b data) = db_total_out b.
Proof.
  intros W. unfold db_wf, db_append_raw in *. cbn. rewrite rev_append_rev, app_length, rev_length.
  repeat split. lia.
Qed.

Lemma push_inv b data : db_wf b ->
  db_wf (db_push b data) /\ db_len (db_push b data) = db_len b + Z.of_nat (length data) /\ db_same_meta b (db_push b data).
Proof. intros W. destruct (append_raw_inv b data W) as (W1 & L1 & M1 & _). repeat split; solve [assumption | apply M1]. Qed.

(** the contents after a push, with any older history [d] behind the buffer *)
Lemma push_rev_app b a d : db_rev (db_push b a) ++ d = rev_append a (db_rev b ++ d).
Proof. cbn. rewrite !rev_append_rev. symmetry. apply app_assoc. Qed.

Lemma push_nil b : db_push b [] = b.
Proof. destruct b. unfold db_push, db_add_total, db_append_raw. cbn. rewrite !Z.add_0_r. reflexivity. Qed.

Lemma lz_chunks_length fuel : forall n off r, (1 <= off <= length r)%nat -> (n <= fuel)%nat ->
  length (lz_copy_chunks fuel n off r) = (length r + n)%nat.
Proof.
  induction fuel as [|f IH]; intros n off r Ho Hn; cbn [lz_copy_chunks]; [lia|].
  destruct n as [|n']; [lia|].
  destruct (Nat.min off (S n')) as [|c'] eqn:Ec; [lia|].
  assert (length (firstn (S c') (skipn (off - S c') r) ++ r) = (length r + S c')%nat) as L
    by (rewrite app_length, firstn_length, skipn_length; lia).
  rewrite IH; lia.
Qed.

(** [DecodeBuffer::repeat]: all three paths (within the buffer, within the dictionary, across the seam)
    append exactly [ml] bytes *)
Lemma db_repeat_inv b off ml b' : db_wf b -> 0 <= ml -> 0 <= off ->
  db_repeat b off ml = ROk b' -> db_wf b' /\ db_len b' = db_len b + ml /\ db_same_meta b b'.
Proof.
  intros W Hml Hoff H. unfold db_repeat, lz_copy_fast in H. unfold db_wf, db_same_meta in *.
  destruct (db_len b <? off) eqn:E1.
  - destruct (db_total_out b <=? db_window b); [|discriminate].
    destruct (_ <? off - db_len b) eqn:E2 in H; [discriminate|].
    destruct (off - db_len b <? ml) eqn:E3.
    + destruct (_ =? 0) in H; [discriminate|]. injection H as <-.
      cbn [db_rev db_len db_dict db_window db_hashed_rev db_add_total db_set_rev db_append_raw].
      set (slice := skipn _ (db_dict b)).
      assert (Z.of_nat (length slice) = off - db_len b) as Ls by (unfold slice; rewrite skipn_length; lia).
      assert (length (rev_append slice (db_rev b)) = Z.to_nat off) as Lr
        by (rewrite rev_append_rev, app_length, rev_length; lia).
      rewrite lz_chunks_length by lia. repeat split; lia.
    + injection H as <-. cbn [db_rev db_len db_dict db_window db_hashed_rev db_append_raw].
      rewrite rev_append_rev, app_length, rev_length, firstn_length, skipn_length. repeat split; lia.
  - destruct ((off =? 0) && (0 <? ml)) eqn:E2; [discriminate|]. injection H as <-.
    cbn [db_rev db_len db_dict db_window db_hashed_rev db_add_total db_set_rev].
    destruct (Z.to_nat ml) as [|m] eqn:Em; [cbn; repeat split; lia|].
    rewrite lz_chunks_length; repeat split; lia.
Qed.

Lemma bits_val_msb_acc_nonneg l : forall acc, 0 <= acc -> 0 <= bits_val_msb_acc acc l.
Proof. induction l as [|b t IH]; intros acc H; cbn [bits_val_msb_acc]; [exact H|]. apply IH. unfold b2z. destruct b; lia. Qed.

Lemma rbr_get_bits_nonneg r n : 0 <= fst (rbr_get_bits r n).
Proof.
  pose proof (fun l => bits_val_msb_acc_nonneg l 0 (Z.le_refl 0)) as N.
  unfold rbr_get_bits. destruct (n <=? 0); [cbn [fst]; lia|]. destruct (n <=? r_left r); cbn [fst].
  - apply N.
  - apply Z.mul_nonneg_nonneg; [apply N|]. apply Z.pow_nonneg. lia.
Qed.

(** three predicates on a sequence, each implying the next.  [seq_decoded]: what [decode_sequences] delivers (3 is
    the smallest base value of the match-length table); [seq_pos] (C01_Exec): match length at least 1, what the
    comparison with the reference needs; [seq_ok]: what the execution of sequences needs *)
Definition seq_ok (sq : sequence) : Prop := 0 <= sq_ll sq /\ 0 <= sq_ml sq /\ 1 <= sq_of sq.
Definition seq_decoded (sq : sequence) : Prop := 0 <= sq_ll sq /\ 3 <= sq_ml sq /\ 1 <= sq_of sq.

Lemma seq_decoded_ok sq : seq_decoded sq -> seq_ok sq.
Proof. unfold seq_decoded, seq_ok. lia. Qed.

(** a generated code table that panics outside [0, hi] and agrees with the reference table inside: bounds on base
    value and bit count are a sweep over the reference table *)
Lemma code_table_bounds (lookup : Z -> res (Z * Z)) base bits hi lo :
  (forall c, c < 0 \/ hi < c -> is_panic (lookup c) = true) ->
  (forall c, 0 <= c <= hi -> lookup c = ROk (znth base c, znth bits c)) ->
  sweep (fun c => (lo <=? znth base c) && (0 <=? znth bits c)) 0 (hi + 1) = true ->
  forall c v n, lookup c = ROk (v, n) -> lo <= v /\ 0 <= n.
Proof.
  intros Out In S c v n H.
  assert (0 <= c <= hi) as R.
  { destruct (Z_lt_le_dec c 0); [|destruct (Z_lt_le_dec hi c); [|lia]];
      pose proof (Out c ltac:(lia)) as P; rewrite H in P; discriminate P. }
  rewrite In in H by exact R. injection H as <- <-.
  pose proof (sweep_spec _ 0 (hi + 1) S c ltac:(lia)) as B. cbv beta in B. lia.
Qed.

Lemma lookup_ll_nonneg c v n : lookup_ll_code c = ROk (v, n) -> 0 <= v /\ 0 <= n.
Proof. exact (code_table_bounds _ _ _ 35 0 ll_code_out_of_range_panics ll_table_eq_ref eq_refl c v n). Qed.
Lemma lookup_ml_ge3 c v n : lookup_ml_code c = ROk (v, n) -> 3 <= v /\ 0 <= n.
Proof. exact (code_table_bounds _ _ _ 52 3 ml_code_out_of_range_panics ml_table_eq_ref eq_refl c v n). Qed.
Lemma lookup_ml_nonneg c v n : lookup_ml_code c = ROk (v, n) -> 0 <= v /\ 0 <= n.
Proof. intros H. apply lookup_ml_ge3 in H. lia. Qed.

Lemma seq_loop_decoded n : forall total s ll ml of br done acc acc' br',
  Forall seq_decoded acc -> seq_loop n total s ll ml of br done acc = ROk (acc', br') -> Forall seq_decoded acc'.
Proof.
  induction n as [|k IH]; intros total s ll ml of br done acc acc' br' HA H; cbn [seq_loop] in H.
  - inversion H; subst. exact HA.
  - bind_inv H. destruct a as [llv llb]. bind_inv H. destruct a as [mlv mlb].
    destruct (MAX_OFFSET_CODE <? code_of (fs_of_rle s) of) eqn:Eo; [discriminate|].
    unfold rbr_get_bits_triple in H.
    pose proof (rbr_get_bits_nonneg br (code_of (fs_of_rle s) of)) as N1.
    destruct (rbr_get_bits br (code_of (fs_of_rle s) of)) as [v1 r1].
    pose proof (rbr_get_bits_nonneg r1 mlb) as N2. destruct (rbr_get_bits r1 mlb) as [v2 r2].
    pose proof (rbr_get_bits_nonneg r2 llb) as N3. destruct (rbr_get_bits r2 llb) as [v3 r3].
    cbn [fst] in *.
    destruct (v1 + 2 ^ code_of (fs_of_rle s) of =? 0) eqn:Ez; [discriminate|].
    bind_inv H. destruct a as [[[ll' ml'] of'] br2].
    destruct (rbr_bits_remaining br2 <? 0); [discriminate|].
    apply IH in H; [exact H|].
    constructor; [|exact HA]. unfold seq_decoded. cbn [sq_ll sq_ml sq_of].
    apply lookup_ll_nonneg in E. apply lookup_ml_ge3 in E0.
    assert (0 <= 2 ^ code_of (fs_of_rle s) of) by (apply Z.pow_nonneg; lia). lia.
Qed.

Lemma decode_sequences_decoded n modes src s s' seqs :
  decode_sequences n modes src s = ROk (s', seqs) -> Forall seq_decoded seqs.
Proof.
  unfold decode_sequences. intros H. bind_inv H. destruct a as [s1 used].
  destruct (zlen src <? used); [discriminate|].
  destruct (rbr_skip_padding (rbr_new (drop_z used src))) as [br|]; [|discriminate].
  bind_inv H. destruct a as [ll br1]. bind_inv H. destruct a as [of br2]. bind_inv H. destruct a as [ml br3].
  bind_inv H. destruct a as [acc br4]. destruct (0 <? rbr_bits_remaining br4); [discriminate|].
  inversion H; subst. rewrite rev'_rev. apply Forall_rev. eapply seq_loop_decoded; [|eassumption]. constructor.
Qed.

Lemma decode_sequences_ok n modes src s s' seqs :
  decode_sequences n modes src s = ROk (s', seqs) -> Forall seq_ok seqs.
Proof.
  intros H. exact (Forall_impl _ seq_decoded_ok (decode_sequences_decoded _ _ _ _ _ _ H)).
Qed.

Definition hist_ok (h : list Z) : Prop := exists a b c, h = [a; b; c] /\ 0 <= a /\ 0 <= b /\ 0 <= c.

Lemma offhist_ok ov ll h : 1 <= ov -> hist_ok h ->
  0 <= fst (do_offset_history ov ll h) /\ hist_ok (snd (do_offset_history ov ll h)).
Proof.
  intros Hov (a & b & c & -> & Ha & Hb & Hc).
  (* the new history starts with the offset it returns *)
  assert (exists x y z, do_offset_history ov ll [a; b; c] = (x, [x; y; z]) /\ 0 <= x /\ 0 <= y /\ 0 <= z)
    as (x & y & z & -> & Hx & Hyz).
  { unfold do_offset_history, znth, zupd.
    assert (ov = 1 \/ ov = 2 \/ ov = 3 \/ 4 <= ov) as [->|[->|[->|H4]]] by lia.
    4: rewrite (proj2 (Z.eqb_neq ov 1)), (proj2 (Z.eqb_neq ov 2)), (proj2 (Z.eqb_neq ov 3)),
         (proj2 (Z.leb_gt ov 3)), (proj2 (Z.leb_gt ov 2)), !andb_false_r by lia.
    all: destruct (ll >? 0); simpl; do 3 eexists; (split; [reflexivity|lia]). }
  split; [exact Hx|]. exists x, y, z. split; [reflexivity|]. split; assumption.
Qed.

Lemma split_at_eq n : forall l,
  split_at n l = if (length l <? n)%nat then None else Some (firstn n l, skipn n l).
Proof.
  induction n as [|n IH]; intros [|x t]; try reflexivity.
  cbn [split_at]. rewrite IH. change (length (x :: t) <? S n)%nat with (length t <? n)%nat.
  destruct (length t <? n)%nat; reflexivity.
Qed.

(** the match copy of one sequence; a match of length 0 copies nothing and does not look at the offset *)
Definition exec_match (b : dbuf) (off ml : Z) : res dbuf := if 0 <? ml then db_repeat b off ml else ROk b.

Lemma exec_match_inv b off ml b' : db_wf b -> 0 <= ml -> 0 <= off ->
  exec_match b off ml = ROk b' -> db_wf b' /\ db_len b' = db_len b + ml /\ db_same_meta b b'.
Proof.
  unfold exec_match. intros W Hml Hoff H. destruct (0 <? ml) eqn:E; [apply db_repeat_inv with off; assumption|].
  injection H as <-. repeat split; [exact W|lia].
Qed.

(** one iteration of [exec_loop], with the literals taken by [firstn]/[skipn] (an empty run pushes nothing) *)
Lemma exec_loop_cons sq t lits buf hist ssum :
  exec_loop (sq :: t) lits buf hist ssum =
  let ll := Z.to_nat (sq_ll sq) in
  if MAX_BLOCK_SIZE <? ssum + sq_ll sq + sq_ml sq then RErr "BlockTooLarge" else
  if (length lits <? ll)%nat then RErr "NotEnoughBytesForSequence" else
  let '(off, hist1) := do_offset_history (sq_of sq) (sq_ll sq) hist in
  if off =? 0 then RErr "ZeroOffset" else
  let* buf2 := exec_match (db_push buf (firstn ll lits)) off (sq_ml sq) in
  if 2 ^ 32 <=? ssum + sq_ml sq + sq_ll sq then RPanic "attempt to add with overflow" else
  exec_loop t (skipn ll lits) buf2 hist1 (ssum + sq_ml sq + sq_ll sq).
Proof.
  cbn [exec_loop]. cbv zeta. destruct (MAX_BLOCK_SIZE <? _); [reflexivity|].
  destruct (0 <? sq_ll sq) eqn:El.
  - rewrite split_at_eq. destruct (length lits <? _)%nat; reflexivity.
  - replace (Z.to_nat (sq_ll sq)) with 0%nat by lia. cbn [firstn skipn Nat.ltb Nat.leb rbind]. rewrite push_nil. reflexivity.
Qed.

Lemma exec_loop_cons_ok sq t lits buf hist ssum r :
  exec_loop (sq :: t) lits buf hist ssum = ROk r ->
  let ll := Z.to_nat (sq_ll sq) in
  let oh := do_offset_history (sq_of sq) (sq_ll sq) hist in
  ssum + sq_ll sq + sq_ml sq <= MAX_BLOCK_SIZE /\ (ll <= length lits)%nat /\ fst oh <> 0 /\
  exists buf2, exec_match (db_push buf (firstn ll lits)) (fst oh) (sq_ml sq) = ROk buf2 /\
    exec_loop t (skipn ll lits) buf2 (snd oh) (ssum + sq_ml sq + sq_ll sq) = ROk r.
Proof.
  rewrite exec_loop_cons. cbv zeta. intros H.
  destruct (MAX_BLOCK_SIZE <? _) eqn:Ec; [discriminate|].
  destruct (length lits <? _)%nat eqn:El; [discriminate|]. apply Nat.ltb_ge in El.
  destruct (do_offset_history _ _ hist) as [off hist1]. cbn [fst snd].
  destruct (off =? 0) eqn:Eo; [discriminate|]. bind_inv H.
  destruct (2 ^ 32 <=? _); [discriminate|]. repeat split; try lia. eauto.
Qed.

(** [execute_sequences]: the loop, then the remaining literals; the final assertion compares the sum of the lengths
    with the growth of the buffer *)
Lemma execute_sequences_ok seqs lits buf hist buf' hist' :
  execute_sequences seqs lits buf hist = ROk (buf', hist') <->
  exists buf1 rest ssum, exec_loop seqs lits buf hist 0 = ROk (buf1, hist', rest, ssum) /\ buf' = db_push buf1 rest /\
    (rest <> [] -> ssum + zlen rest <= MAX_BLOCK_SIZE) /\ (ssum + zlen rest) mod 2 ^ 32 = db_len buf' - db_len buf.
Proof.
  unfold execute_sequences.
  assert (forall buf1 rest, (if 0 <? zlen rest then db_push buf1 rest else buf1) = db_push buf1 rest) as P
    by (intros buf1 [|x rest]; [symmetry; apply push_nil|reflexivity]).
  split.
  - intros H. bind_inv H. destruct a as [[[buf1 hist1] rest] ssum]. rewrite P in H.
    destruct (_ && _) eqn:Ec in H; [discriminate|]. destruct (negb _) eqn:En in H; [discriminate|].
    injection H as <- <-. exists buf1, rest, ssum. repeat split; [|lia].
    intros Hr. destruct rest; [congruence|]. unfold zlen in *. cbn [length] in *. lia.
  - intros (buf1 & rest & ssum & -> & -> & Hc & Hm). cbn [rbind]. rewrite P.
    replace (_ && _) with false
      by (destruct rest; [reflexivity|]; specialize (Hc ltac:(discriminate)); unfold zlen in *; cbn [length] in *; lia).
    rewrite Hm, Z.eqb_refl. reflexivity.
Qed.

(** the buffer grows by exactly the running sum, which the F1 check keeps <= 128 KiB *)
Lemma exec_loop_inv seqs : forall lits buf hist ssum buf' hist' rest ssum',
  db_wf buf -> hist_ok hist -> Forall seq_ok seqs -> 0 <= ssum ->
  exec_loop seqs lits buf hist ssum = ROk (buf', hist', rest, ssum') ->
  db_wf buf' /\ hist_ok hist' /\ db_same_meta buf buf' /\
  db_len buf' - db_len buf = ssum' - ssum /\ ssum <= ssum' /\ (seqs <> [] -> ssum' <= MAX_BLOCK_SIZE).
Proof.
  induction seqs as [|sq t IH]; intros lits buf hist ssum buf' hist' rest ssum' W Hh Hs Hsum H.
  - injection H as <- <- _ <-. repeat split; try assumption; try lia. congruence.
  - inversion Hs as [|? ? (Hll & Hml & Hof) Hs']; subst.
    apply exec_loop_cons_ok in H as (Hcap & Hl & _ & buf2 & Em & H).
    destruct (offhist_ok (sq_of sq) (sq_ll sq) hist Hof Hh) as [Ha Hh1].
    destruct (push_inv buf (firstn (Z.to_nat (sq_ll sq)) lits) W) as (W1 & L1 & M1).
    rewrite firstn_length_le in L1 by exact Hl.
    destruct (exec_match_inv _ _ _ _ W1 Hml Ha Em) as (W2 & L2 & M2).
    assert (0 <= ssum + sq_ml sq + sq_ll sq) as Hsum2 by lia.
    destruct (IH _ _ _ _ _ _ _ _ W2 Hh1 Hs' Hsum2 H) as (W' & Hh' & M' & L' & Le' & Cap').
    split; [exact W'|]. split; [exact Hh'|].
    split; [exact (same_meta_trans _ _ _ (same_meta_trans _ _ _ M1 M2) M')|].
    clear IH Em. split; [lia|]. split; [lia|]. intros _.
    destruct t as [|sq2 t2]; [|apply Cap'; discriminate]. injection H as _ _ _ <-. lia.
Qed.

Lemma max_block_size_val : MAX_BLOCK_SIZE = 131072.
Proof. reflexivity. Qed.

Theorem execute_sequences_inv seqs lits buf hist buf' hist' :
  db_wf buf -> hist_ok hist -> Forall seq_ok seqs ->
  execute_sequences seqs lits buf hist = ROk (buf', hist') ->
  db_wf buf' /\ hist_ok hist' /\ db_same_meta buf buf' /\
  0 <= db_len buf' - db_len buf <= MAX_BLOCK_SIZE.
Proof.
  intros W Hh Hs H. apply execute_sequences_ok in H as (buf1 & rest & ssum & E & -> & Hc & _).
  destruct (exec_loop_inv _ _ _ _ _ _ _ _ _ W Hh Hs (Z.le_refl 0) E) as (W1 & Hh1 & M1 & L1 & Le1 & Cap1).
  destruct (push_inv buf1 rest W1) as (P1 & P2 & P3).
  split; [exact P1|]. split; [exact Hh1|]. split; [eapply same_meta_trans; eassumption|].
  unfold zlen in Hc. destruct rest as [|x rest]; [|specialize (Hc ltac:(discriminate)); lia].
  cbn [length] in P2. destruct seqs as [|sq t].
  - injection E as _ _ _ <-. rewrite max_block_size_val. lia.
  - specialize (Cap1 ltac:(discriminate)). lia.
Qed.

Definition scratch_ok (sc : scratch) : Prop := db_wf (sc_buf sc) /\ hist_ok (sc_hist sc).

Lemma lit_header_regen raw used ty regen comp streams :
  lit_header_parse raw = ROk (used, ty, regen, comp, streams) -> True.
Proof. trivial. Qed.

(** what a compressed block does to buffer and offset history once its sections are read: [None] = no sequences *)
Definition block_exec (oseqs : option (list sequence)) (lits : list Z) (b : dbuf) (h : list Z) : res (dbuf * list Z) :=
  match oseqs with Some seqs => execute_sequences seqs lits b h | None => ROk (db_push b lits, h) end.

(** a block that decodes reads its sections without looking at buffer or history: on every buffer it is
    [block_exec] of the same literals and sequences, and leaves the same tables *)
Lemma decompress_block_ok content_size sc raw sc' : decompress_block content_size sc raw = ROk sc' ->
  exists lits oseqs, zlen lits <= MAX_BLOCK_SIZE /\ (forall seqs, oseqs = Some seqs -> Forall seq_ok seqs) /\
    forall b h, decompress_block content_size {| sc_huf := sc_huf sc; sc_fse := sc_fse sc; sc_buf := b; sc_hist := h |} raw =
      let* (b', h') := block_exec oseqs lits b h in
      ROk {| sc_huf := sc_huf sc'; sc_fse := sc_fse sc'; sc_buf := b'; sc_hist := h' |}.
Proof.
  unfold decompress_block. cbn [sc_huf sc_fse sc_buf sc_hist]. intros H.
  destruct (lit_header_parse raw) as [[[[[used ty] regen] comp] streams]| |]; try discriminate.
  destruct (MAX_BLOCK_SIZE <? regen) eqn:Ereg; [discriminate|].
  destruct (zlen _ <? _); [discriminate|].
  destruct (decode_literals _ _ _) as [[[ht lits] used_lit]| |]; try discriminate. cbn [rbind] in *.
  destruct (negb (regen =? zlen lits)) eqn:E1; [discriminate|].
  destruct (negb (used_lit =? _)); [discriminate|].
  destruct (sequences_header_parse _ _ _) as [[[used_seq nseq] modes]| |]; try discriminate.
  destruct (negb (_ =? content_size)); [discriminate|].
  assert (zlen lits <= MAX_BLOCK_SIZE) as L by lia.
  destruct (negb (nseq =? 0)).
  - destruct (decode_sequences _ _ _ _) as [[fs seqs]| |] eqn:Es; try discriminate. cbn [rbind] in *.
    bind_inv H. destruct a as [buf hist]. injection H as <-.
    exists lits, (Some seqs). split; [exact L|]. split; [|reflexivity].
    intros ? [= <-]. exact (decode_sequences_ok _ _ _ _ _ _ Es).
  - destruct (negb (zlen _ =? 0)); [discriminate|]. injection H as <-.
    exists lits, None. split; [exact L|]. split; [discriminate|reflexivity].
Qed.

Theorem decompress_block_inv content_size sc raw sc' :
  scratch_ok sc -> decompress_block content_size sc raw = ROk sc' ->
  scratch_ok sc' /\ db_same_meta (sc_buf sc) (sc_buf sc') /\
  0 <= db_len (sc_buf sc') - db_len (sc_buf sc) <= MAX_BLOCK_SIZE.
Proof.
  intros [W Hh] H. destruct (decompress_block_ok _ _ _ _ H) as (lits & oseqs & L & Hs & K).
  destruct sc as [hu fs b h]. cbn [sc_huf sc_fse sc_buf sc_hist] in *. rewrite K in H. bind_inv H.
  destruct a as [b' h']. injection H as <-. cbn [sc_buf sc_hist]. destruct oseqs as [seqs|]; cbn [block_exec] in E.
  - destruct (execute_sequences_inv _ _ _ _ _ _ W Hh (Hs _ eq_refl) E) as (W' & Hh' & M' & G').
    repeat split; solve [assumption | apply M' | apply G'].
  - injection E as <- <-. destruct (push_inv b lits W) as (P1 & P2 & P3). unfold zlen in L.
    repeat split; solve [assumption | apply P3 | lia].
Qed.

Lemma read_exact_spec n src a rest : 0 <= n -> read_exact n src = Some (a, rest) ->
  src = a ++ rest /\ Z.of_nat (length a) = n.
Proof.
  unfold read_exact, zlen, take_z, drop_z. intros Hn H. destruct (Z.of_nat (length src) <? n) eqn:E; [discriminate|].
  inversion H; subst. split; [symmetry; apply firstn_skipn|]. rewrite firstn_length. lia.
Qed.

(** any block type: the decoded size of a block is at most 128 KiB when the header sizes are (the header reader
    guarantees it, see [read_block_header_sizes]) *)
Theorem decode_block_content_inv ty dsize csize sc src sc' n rest :
  scratch_ok sc -> 0 <= dsize <= MAX_BLOCK_SIZE -> 0 <= csize ->
  decode_block_content ty dsize csize sc src = ROk (sc', n, rest) ->
  scratch_ok sc' /\ db_same_meta (sc_buf sc) (sc_buf sc') /\
  0 <= db_len (sc_buf sc') - db_len (sc_buf sc) <= MAX_BLOCK_SIZE /\
  0 <= n /\ exists c, src = c ++ rest /\ Z.of_nat (length c) = n.
Proof.
  intros [W Hh] Hd Hc H. unfold decode_block_content in H.
  (* RLE and raw blocks append [dsize] bytes to the buffer *)
  assert (forall data, length data = Z.to_nat dsize ->
    let sc1 := {| sc_huf := sc_huf sc; sc_fse := sc_fse sc; sc_buf := db_append_raw (sc_buf sc) data; sc_hist := sc_hist sc |} in
    scratch_ok sc1 /\ db_same_meta (sc_buf sc) (sc_buf sc1) /\
    0 <= db_len (sc_buf sc1) - db_len (sc_buf sc) <= MAX_BLOCK_SIZE) as A.
  { intros data Ld. destruct (append_raw_inv (sc_buf sc) data W) as (P1 & P2 & P3 & _).
    cbn [sc_buf sc_hist]. repeat split; solve [assumption | apply P3 | lia]. }
  destruct (ty =? 1).
  { destruct (read_exact 1 src) as [[b r]|] eqn:Er; [|discriminate]. injection H as <- <- <-.
    destruct (read_exact_spec 1 src b r ltac:(lia) Er) as [-> Lb].
    destruct (A _ (repeat_z_length (nth_z b 0) _)) as ((A1 & A2) & A3 & A4).
    repeat split; try assumption; try lia. exists b. split; [reflexivity|exact Lb]. }
  destruct (ty =? 0).
  { destruct (read_exact dsize src) as [[d r]|] eqn:Er; [|discriminate]. injection H as <- <- <-.
    destruct (read_exact_spec dsize src d r ltac:(lia) Er) as [-> Ld]. assert (length d = Z.to_nat dsize) as Ld' by lia.
    destruct (A d Ld') as ((A1 & A2) & A3 & A4).
    repeat split; try assumption; try lia. exists d. split; [reflexivity|exact Ld]. }
  destruct (ty =? 2); [|discriminate].
  destruct (read_exact csize src) as [[raw r]|] eqn:Er; [|discriminate].
  bind_inv H. injection H as <- <- <-.
  destruct (read_exact_spec csize src raw r Hc Er) as [-> Lr].
  destruct (decompress_block_inv _ _ _ _ (conj W Hh) E) as ((S1 & S2) & M1 & G1).
  repeat split; try assumption; try apply M1; try lia. exists raw. split; [reflexivity|exact Lr].
Qed.

(** the block header reader only lets sizes up to 128 KiB through (uses the generated [block_content_size]) *)
Lemma read_block_header_sizes b0 b1 b2 last ty dsize csize :
  0 <= b0 < 256 -> 0 <= b1 < 256 -> 0 <= b2 < 256 ->
  read_block_header b0 b1 b2 = ROk (last, ty, dsize, csize) ->
  0 <= dsize <= MAX_BLOCK_SIZE /\ 0 <= csize <= MAX_BLOCK_SIZE /\ 0 <= ty <= 2.
Proof.
  intros H0 H1 H2 H. unfold read_block_header in H.
  rewrite block_type_field in H by assumption. cbn [rbind] in H.
  destruct ((b0 / 2) mod 4 =? 3) eqn:E3; [discriminate|].
  unfold block_content_size in H. rewrite block_size_field in H by assumption.
  destruct ((b0 + 256 * b1 + 65536 * b2) / 8 >? MAX_BLOCK_SIZE) eqn:Eg; [discriminate|]. cbn [rbind] in H.
  rewrite max_block_size_val in *.
  assert (0 <= (b0 + 256 * b1 + 65536 * b2) / 8) as Hsz by (apply Z.div_pos; lia).
  pose proof (Z.mod_pos_bound (b0 / 2) 4 ltac:(lia)) as Ht.
  set (t := (b0 / 2) mod 4) in *. set (sz := (b0 + 256 * b1 + 65536 * b2) / 8) in *.
  injection H as _ <- <- <-.
  destruct ((t =? 0) || (t =? 1)); destruct (t =? 1); lia.
Qed.

Definition st_ok (s : fstate) : Prop := scratch_ok (fr_scratch s).

Lemma bytes_ok_nth src i : bytes_ok src = true -> 0 <= nth_z src i < 256.
Proof.
  unfold bytes_ok, nth_z. intros H. rewrite forallb_forall in H.
  destruct (Nat.lt_ge_cases (Z.to_nat i) (length src)) as [L|L].
  - specialize (H _ (nth_In src 0 L)). unfold byte_ok in H. lia.
  - rewrite nth_overflow by exact L. lia.
Qed.
Lemma bytes_ok_app a b : bytes_ok (a ++ b) = true -> bytes_ok a = true /\ bytes_ok b = true.
Proof. unfold bytes_ok. rewrite forallb_app. apply andb_true_iff. Qed.

Lemma read_block_header_src_spec src last ty dsize csize rest :
  bytes_ok src = true -> read_block_header_src src = ROk (last, ty, dsize, csize, rest) ->
  0 <= dsize <= MAX_BLOCK_SIZE /\ 0 <= csize <= MAX_BLOCK_SIZE /\ 0 <= ty <= 2 /\
  Z.of_nat (length src) = 3 + Z.of_nat (length rest) /\ bytes_ok rest = true.
Proof.
  intros B H. unfold read_block_header_src in H.
  destruct (read_exact 3 src) as [[hb r]|] eqn:Er; [|discriminate].
  destruct (read_exact_spec 3 src hb r ltac:(lia) Er) as [-> Lh].
  destruct (bytes_ok_app _ _ B) as [Bh Br].
  bind_inv H. destruct a as [[[l t] d] c]. injection H as <- <- <- <- <-.
  destruct (read_block_header_sizes _ _ _ _ _ _ _ (bytes_ok_nth hb 0 Bh) (bytes_ok_nth hb 1 Bh) (bytes_ok_nth hb 2 Bh) E)
    as (A1 & A2 & A3).
  rewrite app_length. repeat split; solve [assumption | lia].
Qed.

(** the bound on the buffer length when the loop stops, for a loop entered with buffer length [len_before] and block
    count [blocks_before]; [SAll] gives none, and the statements exclude it *)
Definition strat_bound (strat : strategy) (s : fstate) (len_before blocks_before : Z) : Z :=
  match strat with
  | SAll => -1
  | SUptoBytes n => Z.max (db_len (st_buf s)) (len_before + n) + MAX_BLOCK_SIZE
  | SUptoBlocks k => db_len (st_buf s) + MAX_BLOCK_SIZE * Z.max 1 (k - (fr_blocks s - blocks_before))
  end.

(** a state [s2] that differs from [s] by one decoded block with new scratch [sc], [rest] being what is left of
    [src]: what the loop promises when it stops after this block *)
Lemma one_block_post s sc s2 (src rest : list Z) strat len_before blocks_before :
  scratch_ok sc -> db_same_meta (st_buf s) (sc_buf sc) ->
  0 <= db_len (sc_buf sc) - db_len (st_buf s) <= MAX_BLOCK_SIZE ->
  fr_scratch s2 = sc -> fr_header s2 = fr_header s -> fr_blocks s2 = fr_blocks s + 1 ->
  fr_bytes_read s2 - fr_bytes_read s = Z.of_nat (length src) - Z.of_nat (length rest) ->
  st_ok s2 /\ db_same_meta (st_buf s) (st_buf s2) /\ fr_header s2 = fr_header s /\
  fr_bytes_read s2 - fr_bytes_read s = Z.of_nat (length src) - Z.of_nat (length rest) /\
  db_len (st_buf s) <= db_len (st_buf s2) /\ fr_blocks s < fr_blocks s2 /\
  (strat <> SAll -> db_len (st_buf s2) <= strat_bound strat s len_before blocks_before).
Proof.
  intros S1 M1 G1 <- Hh Hk Hr. unfold st_ok, st_buf in *. repeat split; try assumption; try apply S1; try apply M1; try lia.
  intros NS. unfold strat_bound, st_buf. rewrite max_block_size_val in *. destruct strat; [congruence| |]; lia.
Qed.

Theorem decode_blocks_loop_inv fuel : forall s src strat len_before blocks_before s' rest,
  st_ok s -> bytes_ok src = true ->
  decode_blocks_loop fuel s src strat len_before blocks_before = ROk (s', rest) ->
  st_ok s' /\ db_same_meta (st_buf s) (st_buf s') /\ fr_header s' = fr_header s /\
  fr_bytes_read s' - fr_bytes_read s = Z.of_nat (length src) - Z.of_nat (length rest) /\
  db_len (st_buf s) <= db_len (st_buf s') /\ fr_blocks s < fr_blocks s' /\
  (strat <> SAll -> db_len (st_buf s') <= strat_bound strat s len_before blocks_before).
Proof.
  induction fuel as [|f IH]; intros s src strat lb bb s' rest Hs B H; cbn [decode_blocks_loop] in H; [discriminate|].
  bind_inv H. destruct a as [[[[last ty] dsize] csize] src1].
  destruct (read_block_header_src_spec _ _ _ _ _ _ B E) as (Hd & Hc & _ & Hl1 & B1).
  bind_inv H. destruct a as [[sc nbytes] src2]. cbn [set_scratch fr_scratch] in E0.
  destruct (decode_block_content_inv _ _ _ _ _ _ _ _ Hs Hd (proj1 Hc) E0) as (S1 & M1 & G1 & Hn & (c & -> & Hcl)).
  destruct (bytes_ok_app _ _ B1) as [_ B2]. rewrite app_length in Hl1.
  set (s1 := set_scratch (set_scratch s (fr_scratch s) 3 0) sc nbytes 1) in *.
  pose proof (fun s2 rest2 => one_block_post s sc s2 src rest2 strat lb bb S1 M1 G1) as Stop.
  destruct last.
  - destruct (checksum_flag s1).
    + destruct (read_exact 4 src2) as [[ck src3]|] eqn:Ec; [|discriminate]. injection H as <- <-.
      destruct (read_exact_spec 4 src2 ck src3 ltac:(lia) Ec) as [-> Lck]. rewrite app_length in Hl1.
      apply Stop; cbn; clear IH Stop; lia || reflexivity.
    + injection H as <- <-. apply Stop; cbn; clear IH Stop; lia || reflexivity.
  - destruct (match strat with SAll => false | _ => _ end) eqn:Estop in H.
    + injection H as <- <-. apply Stop; cbn; clear IH Stop; lia || reflexivity.
    + (* another round: the bound of the rest of the loop is relative to [s1] *)
      destruct (IH s1 _ _ _ _ _ _ S1 B2 H) as (I1 & I2 & I3 & I4 & I5 & I6 & I7). clear IH Stop H E E0.
      unfold st_buf in *. cbn [s1 set_scratch fr_scratch fr_header fr_bytes_read fr_blocks] in *.
      split; [exact I1|]. split; [eapply same_meta_trans; eassumption|]. split; [exact I3|].
      split; [lia|]. split; [lia|]. split; [lia|].
      intros NS. specialize (I7 NS). unfold strat_bound, st_buf in *.
      cbn [s1 set_scratch fr_scratch fr_blocks] in I7. rewrite max_block_size_val in *.
      destruct strat; [congruence| |]; lia.
Qed.
