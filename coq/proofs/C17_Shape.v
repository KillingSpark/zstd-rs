(** C17 / C02: the shape of the match finder's output for one block: matches (each with its preceding literal run),
    then at most one trailing literal run -- what [compress_block] relies on when it accumulates the literals of all
    sequences in one buffer. *)
Require Import Zrs.lib.RsPrelude Zrs.model.Matcher Zrs.proofs.C17_Matcher.
Open Scope nat_scope.

Definition is_triple (s : mseq) : Prop := match s with MTriple _ _ _ => True | MLit _ => False end.
Definition block_shape (seqs : list mseq) : Prop :=
  exists ts tail, seqs = ts ++ tail /\ Forall is_triple ts /\ (tail = [] \/ exists l, tail = [MLit l]).

(** a literal run is only reported when the block is used up: the next call reports the end *)
Lemma next_seq_lit fuel : forall st l st' f', next_seq fuel st = ROk (Some (MLit l), st') ->
  next_seq (S f') st' = ROk (None, st').
Proof.
  induction fuel as [|f IH]; intros st l st' f' H; cbn [next_seq] in H; [discriminate|].
  destruct (mg_win st) as [|e0 older] eqn:Ew; [discriminate|].
  assert (Hdone : forall n, length (we_data e0) <= n ->
            next_seq (S f') (set_cur st e0 older n n) = ROk (None, set_cur st e0 older n n)).
  { intros n Hn. apply Nat.leb_le in Hn. cbn [next_seq set_cur mg_win mg_sidx mg_last].
    rewrite Hn, Nat.eqb_refl. reflexivity. }
  destruct (Nat.leb_spec (length (we_data e0)) (mg_sidx st)) as [E1|_].
  - destruct (negb (mg_last st =? mg_sidx st)); [|discriminate].
    destruct (length (we_data e0) <? mg_last st); [discriminate|].
    injection H as _ <-. apply Hdone. exact E1.
  - destruct (length (skipn (mg_sidx st) (we_data e0)) <? MIN_MATCH).
    + destruct (length (we_data e0) <? mg_last st); [discriminate|]. injection H as _ <-. apply Hdone. lia.
    + destruct (find_cand _ _ _ _) as [[[off ml]|]|e|e]; try discriminate.
      * destruct (add_suffixes_till e0 (mg_sidx st) (mg_sidx st + ml)) as [e0'|e|e]; cbn [rbind] in H; try discriminate.
        destruct (mg_sidx st <? mg_last st); discriminate.
      * apply (IH _ _ _ _ H).
Qed.

Lemma start_loop_shape fuel : forall st acc out st', start_loop fuel st acc = ROk (out, st') ->
  exists ts tail, out = rev acc ++ ts ++ tail /\ Forall is_triple ts /\ (tail = [] \/ exists l, tail = [MLit l]).
Proof.
  induction fuel as [|f IH]; intros st acc out st' H; cbn [start_loop] in H; [discriminate|].
  destruct (next_seq _ st) as [[[sq|] st1]|e|e] eqn:En; cbn [rbind] in H; try discriminate.
  - destruct sq as [l|l off ml].
    + destruct f as [|f']; [discriminate|]. cbn [start_loop] in H.
      rewrite (next_seq_lit _ _ _ _ _ En) in H. cbn [rbind] in H. injection H as <- _.
      exists [], [MLit l]. unfold rev'. rewrite <- rev_alt. cbn [rev app]. split; [reflexivity|]. split; [constructor|right; eexists; reflexivity].
    + destruct (IH _ _ _ _ H) as (ts & tail & -> & Ht & Htail).
      exists (MTriple l off ml :: ts), tail. cbn [rev]. rewrite <- !app_assoc. cbn [app].
      split; [reflexivity|]. split; [constructor; [exact I|exact Ht]|exact Htail].
  - injection H as <- _. exists [], []. unfold rev'. rewrite <- rev_alt, !app_nil_r. split; [reflexivity|]. split; [constructor|left; reflexivity].
Qed.

Theorem mstep_block_shape d data d' seqs : mstep d (OpBlock data false) = ROk (d', Some seqs) -> block_shape seqs.
Proof.
  unfold mstep, mgd_start, start_matching. intros H.
  destruct (commit_space d data) as [d1|e|e]; cbn [rbind] in H; try discriminate.
  destruct (start_loop _ (md_gen d1) []) as [[sq g]|e|e] eqn:El; cbn [rbind] in H; try discriminate.
  injection H as _ <-. destruct (start_loop_shape _ _ _ _ _ El) as (ts & tail & -> & Ht & Htail).
  exists ts, tail. cbn [rev app]. repeat split; assumption.
Qed.

Definition long_enough (s : mseq) : Prop := match s with MTriple _ _ ml => 2 <= ml | MLit _ => True end.
