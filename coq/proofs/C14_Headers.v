(** C14: repeat-offset state machine, sequence counts, block headers, window descriptor. *)
Require Import Zrs.lib.RsPrelude Zrs.lib.Sweep Zrs.lib.Bits Zrs.gen.Generated.

(** the repeat-offset rules of RFC 8878, 3.1.1.5, as a table: the offset used and the history after it *)
Definition spec_offset_history (ov ll h1 h2 h3 : Z) : Z * list Z :=
  if 0 <? ll then
    if ov =? 1 then (h1, [h1; h2; h3])
    else if ov =? 2 then (h2, [h2; h1; h3])
    else if ov =? 3 then (h3, [h3; h1; h2])
    else (ov - 3, [ov - 3; h1; h2])
  else
    if ov =? 1 then (h2, [h2; h1; h3])
    else if ov =? 2 then (h3, [h3; h1; h2])
    else if ov =? 3 then (h1 - 1, [h1 - 1; h1; h2])
    else (ov - 3, [ov - 3; h1; h2]).

Lemma offset_history_spec ov ll h1 h2 h3 :
  1 <= ov -> 0 <= ll -> 1 <= h1 ->
  do_offset_history ov ll [h1; h2; h3] = spec_offset_history ov ll h1 h2 h3.
Proof.
  intros Hov Hll Hh. unfold do_offset_history, spec_offset_history.
  replace (ll >? 0) with (0 <? ll) by (rewrite Z.gtb_ltb; reflexivity).
  assert (ov = 1 \/ ov = 2 \/ ov = 3 \/ 4 <= ov) as [->|[->|[->|H4]]] by lia.
  - destruct (0 <? ll); reflexivity.
  - destruct (0 <? ll); reflexivity.
  - destruct (0 <? ll); [reflexivity|]. cbn. rewrite Z.max_r by lia. reflexivity.
  - assert ((1 <=? ov) && (ov <=? 3) = false) as -> by lia.
    assert ((1 <=? ov) && (ov <=? 2) = false) as -> by lia.
    assert (ov =? 1 = false) as -> by lia. assert (ov =? 2 = false) as -> by lia.
    assert (ov =? 3 = false) as -> by lia.
    destruct (0 <? ll); reflexivity.
Qed.

(** a zero first history entry (only a malformed dictionary can seed one) saturates to the invalid offset 0,
    which the caller rejects; it never underflows *)
Lemma offset_history_saturates h2 h3 : fst (do_offset_history 3 0 [0; h2; h3]) = 0.
Proof. reflexivity. Qed.

Lemma offset_history_safe ov ll h1 h2 h3 :
  1 <= ov < 2 ^ 32 -> 0 <= ll -> 0 <= h1 < 2 ^ 32 ->
  do_offset_history_safe ov ll [h1; h2; h3] = true.
Proof.
  intros Hov Hll Hh. unfold do_offset_history_safe, in_u.
  change (2 ^ 32) with 4294967296 in *. change (2 ^ 64) with 18446744073709551616.
  assert (ov = 1 \/ ov = 2 \/ ov = 3 \/ 4 <= ov) as [->|[->|[->|H4]]] by lia.
  - destruct (ll >? 0); reflexivity.
  - destruct (ll >? 0); reflexivity.
  - destruct (ll >? 0); reflexivity.
  - assert ((1 <=? ov) && (ov <=? 3) = false) as -> by lia.
    assert ((1 <=? ov) && (ov <=? 2) = false) as -> by lia.
    assert (ov =? 1 = false) as -> by lia. assert (ov =? 2 = false) as -> by lia.
    assert (ov =? 3 = false) as -> by lia.
    assert ((0 <=? ov - 3) && (ov - 3 <? 4294967296) = true) as -> by lia.
    destruct (ll >? 0); reflexivity.
Qed.

(** the three layouts of a sequence count (RFC 8878, 3.1.1.3.2.1) *)
Definition seqnum_layout (n : Z) : list Z :=
  if n <=? 127 then [n] else if n <=? 32511 then [n / 256 + 128; n mod 256]
  else [255; (n - 32512) mod 256; (n - 32512) / 256].

Lemma encode_seqnum_spec n : 1 <= n <= 98047 ->
  encode_seqnum n [] = ROk (tt, seqnum_layout n) /\ encode_seqnum_safe n [] = true /\ bytes_ok (seqnum_layout n) = true.
Proof.
  intros H. unfold encode_seqnum, encode_seqnum_safe, seqnum_layout, bytes_ok, byte_ok, in_u. cbv zeta.
  change (2 ^ 8) with 256. change (2 ^ 64) with 18446744073709551616.
  assert (n <= 127 \/ 128 <= n <= 32511 \/ 32512 <= n) as [R|[R|R]] by lia.
  - replace ((1 <=? n) && (n <=? 127)) with true by lia. replace (n <=? 127) with true by lia.
    rewrite Z.mod_small by lia. replace ((0 <=? n) && (n <? 256)) with true by lia.
    cbn [app forallb]. repeat split; try reflexivity; lia.
  - replace ((1 <=? n) && (n <=? 127)) with false by lia. replace ((128 <=? n) && (n <=? 32511)) with true by lia.
    replace (n <=? 127) with false by lia. replace (n <=? 32511) with true by lia.
    replace (Z.lor (n / 256) 128) with (n / 256 + 128) by (change 128 with (1 * 2 ^ 7); rewrite lor_low_shifted; lia).
    rewrite (Z.mod_small (n / 256 + 128)) by lia.
    replace ((0 <=? n / 256 + 128) && (n / 256 + 128 <? 256)) with true by lia.
    replace ((0 <=? n mod 256) && (n mod 256 <? 256)) with true by lia.
    cbn [app forallb]. repeat split; try reflexivity; lia.
  - replace ((1 <=? n) && (n <=? 127)) with false by lia. replace ((128 <=? n) && (n <=? 32511)) with false by lia.
    replace ((32512 <=? n) && (n <=? 65535 + 32512)) with true by lia.
    replace (n <=? 127) with false by lia. replace (n <=? 32511) with false by lia.
    rewrite (Z.mod_small ((n - 32512) / 256)) by lia.
    replace ((0 <=? n - 32512) && (n - 32512 <? 18446744073709551616)) with true by lia.
    replace ((0 <=? (n - 32512) mod 256) && ((n - 32512) mod 256 <? 256)) with true by lia.
    replace ((0 <=? (n - 32512) / 256) && ((n - 32512) / 256 <? 256)) with true by lia.
    cbn [app forallb]. repeat split; try reflexivity; lia.
Qed.

Lemma seqnum_upper_limit : 65535 + 32512 = 98047.
Proof. reflexivity. Qed.

(** what every header byte pattern means (RFC 8878, 3.1.1.3.2.1) *)
Definition spec_seq_header (src : list Z) : option (Z * Z * option Z) :=   (* bytes used, count, modes *)
  match src with
  | [] => None
  | b0 :: t =>
      if b0 =? 0 then Some (1, 0, None)
      else if b0 <? 128 then match t with m :: _ => Some (2, b0, Some m) | _ => None end
      else if b0 <? 255 then
        match t with
        | b1 :: t' =>
            let n := (b0 - 128) * 256 + b1 in
            if n =? 0 then Some (2, 0, None)
            else match t' with m :: _ => Some (3, n, Some m) | _ => None end
        | _ => None
        end
      else match t with b1 :: b2 :: m :: _ => Some (4, b1 + b2 * 256 + 32512, Some m) | _ => None end
  end.

Lemma seq_header_parse_spec src : bytes_ok src = true ->
  sequences_header_parse 0 None src =
  match spec_seq_header src with Some r => ROk r | None => RErr "NotEnoughBytes"%string end.
Proof.
  intros B. destruct src as [|b0 t]; [reflexivity|].
  cbn [bytes_ok forallb] in B. apply andb_true_iff in B as [B0 Bt]. unfold byte_ok in B0.
  unfold spec_seq_header, sequences_header_parse.
  cbn [List.length Nat.eqb].
  change (znth (b0 :: t) 0) with b0. change (2 ^ 8) with 256.
  assert (b0 = 0 \/ 1 <= b0 <= 127 \/ 128 <= b0 <= 254 \/ b0 = 255) as [ -> | [R | [R | -> ]]] by lia.
  - reflexivity.
  - assert (b0 =? 0 = false) as -> by lia. assert ((1 <=? b0) && (b0 <=? 127) = true) as -> by lia.
    assert (b0 <? 128 = true) as -> by lia.
    destruct t as [|m t']; [reflexivity|]. cbn [List.length].
    assert (Z.of_nat (S (S (length t'))) <? 2 = false) as -> by lia. reflexivity.
  - assert (b0 =? 0 = false) as -> by lia. assert ((1 <=? b0) && (b0 <=? 127) = false) as -> by lia.
    assert ((128 <=? b0) && (b0 <=? 254) = true) as -> by lia.
    assert (b0 <? 128 = false) as -> by lia. assert (b0 <? 255 = true) as -> by lia.
    destruct t as [|b1 t']; [reflexivity|]. cbn [List.length].
    assert (Z.of_nat (S (S (length t'))) <? 2 = false) as -> by lia.
    cbn [bytes_ok forallb] in Bt. apply andb_true_iff in Bt as [B1 Bt]. unfold byte_ok in B1.
    change (znth (b0 :: b1 :: t') 1) with b1.
    rewrite (Z.mod_small ((b0 - 128) * 256)) by lia.
    destruct (Z.eqb_spec ((b0 - 128) * 256 + b1) 0) as [E|NE]; cbn [negb].
    + rewrite E. reflexivity.
    + destruct t' as [|m t'']; [reflexivity|]. cbn [List.length].
      assert (Z.of_nat (S (S (S (length t'')))) <? 3 = false) as -> by lia. reflexivity.
  - cbn [Z.eqb Z.leb Z.ltb Z.compare Pos.compare Pos.compare_cont andb].
    destruct t as [|b1 [|b2 [|m t']]]; try reflexivity.
    cbn [List.length].
    assert (Z.of_nat (S (S (S (S (length t'))))) <? 4 = false) as -> by lia.
    cbn [bytes_ok forallb] in Bt. repeat (apply andb_true_iff in Bt as [? Bt]). unfold byte_ok in *.
    change (znth (255 :: b1 :: b2 :: m :: t') 1) with b1. change (znth (255 :: b1 :: b2 :: m :: t') 2) with b2.
    change (znth (255 :: b1 :: b2 :: m :: t') 3) with m.
    rewrite (Z.mod_small (b2 * 256)) by lia. reflexivity.
Qed.

Lemma seq_header_after_seqnum n m rest : 1 <= n <= 98047 ->
  sequences_header_parse 0 None (seqnum_layout n ++ m :: rest) = ROk (Z.of_nat (length (seqnum_layout n)) + 1, n, Some m).
Proof.
  intros Hn. unfold seqnum_layout.
  destruct (Z.leb_spec n 127) as [H1|H1]; [|destruct (Z.leb_spec n 32511) as [H2|H2]];
    cbn [app]; unfold sequences_header_parse; cbv zeta; cbn [length Nat.eqb];
    unfold znth; change (Z.to_nat 0) with 0%nat; change (Z.to_nat 1) with 1%nat; change (Z.to_nat 2) with 2%nat;
    change (Z.to_nat 3) with 3%nat; cbn [nth].
  - destruct (Z.eqb_spec n 0) as [H|_]; [lia|].
    destruct (Z.leb_spec 1 n) as [_|H]; [|lia]. destruct (Z.leb_spec n 127) as [_|H]; [|lia]. cbn [andb].
    destruct (Z.ltb_spec (Z.of_nat (S (S (length rest)))) 2) as [H|_]; [lia|]. reflexivity.
  - destruct (Z.eqb_spec (n / 256 + 128) 0) as [H|_]; [lia|].
    destruct (Z.leb_spec 1 (n / 256 + 128)) as [_|H]; [|lia].
    destruct (Z.leb_spec (n / 256 + 128) 127) as [H|_]; [lia|]. cbn [andb].
    destruct (Z.leb_spec 128 (n / 256 + 128)) as [_|H]; [|lia].
    destruct (Z.leb_spec (n / 256 + 128) 254) as [_|H]; [|lia]. cbn [andb].
    destruct (Z.ltb_spec (Z.of_nat (S (S (S (length rest))))) 2) as [H|_]; [lia|].
    change (2 ^ 8) with 256.
    assert (E : ((n / 256 + 128 - 128) * 256) mod 4294967296 + n mod 256 = n) by lia. rewrite E.
    destruct (Z.eqb_spec n 0) as [H|_]; [lia|]. cbn [negb].
    destruct (Z.ltb_spec (Z.of_nat (S (S (S (length rest))))) 3) as [H|_]; [lia|]. reflexivity.
  - change (255 =? 0) with false. change ((1 <=? 255) && (255 <=? 127)) with false.
    change ((128 <=? 255) && (255 <=? 254)) with false. change (255 =? 255) with true. cbv iota.
    destruct (Z.ltb_spec (Z.of_nat (S (S (S (S (length rest)))))) 4) as [H|_]; [lia|].
    change (2 ^ 8) with 256. f_equal. f_equal. f_equal. lia.
Qed.

(** 228 stands for any modes byte: [seq_header_after_seqnum] *)
Lemma seqnum_roundtrip n : 1 <= n <= 98047 ->
  exists bytes, encode_seqnum n [] = ROk (tt, bytes) /\ bytes_ok bytes = true /\
    sequences_header_parse 0 None (bytes ++ [228]) = ROk (Z.of_nat (length bytes) + 1, n, Some 228) /\
    encode_seqnum_safe n [] = true.
Proof.
  intros H. destruct (encode_seqnum_spec n H) as (E & S & B). exists (seqnum_layout n).
  repeat split; try assumption. apply seq_header_after_seqnum, H.
Qed.

Lemma block_size_field b0 b1 b2 : 0 <= b0 < 256 -> 0 <= b1 < 256 -> 0 <= b2 < 256 ->
  block_content_size_unchecked b0 b1 b2 = (b0 + 256 * b1 + 65536 * b2) / 8.
Proof.
  intros H0 H1 H2. unfold block_content_size_unchecked.
  change (2 ^ 3) with 8. change 4294967296 with (2 ^ 32).
  rewrite (Z.mod_small (b1 * 2 ^ 5)) by (change (2 ^ 5) with 32; change (2 ^ 32) with 4294967296; lia).
  rewrite (Z.mod_small (b2 * 2 ^ 13)) by (change (2 ^ 13) with 8192; change (2 ^ 32) with 4294967296; lia).
  rewrite (lor_low_shifted (b0 / 8) b1 5) by (change (2 ^ 5) with 32; lia).
  rewrite (lor_low_shifted (b0 / 8 + b1 * 2 ^ 5) b2 13) by (change (2 ^ 5) with 32; change (2 ^ 13) with 8192; lia).
  change (2 ^ 5) with 32. change (2 ^ 13) with 8192. lia.
Qed.

Lemma block_type_field b0 : 0 <= b0 < 256 -> block_type b0 = ROk ((b0 / 2) mod 4).
Proof.
  intros H. unfold block_type. change (2 ^ 1) with 2.
  pose proof (Z.mod_pos_bound (b0 / 2) 4 ltac:(lia)) as M.
  destruct (Z.eqb_spec ((b0 / 2) mod 4) 0) as [->|]; [reflexivity|].
  destruct (Z.eqb_spec ((b0 / 2) mod 4) 1) as [->|]; [reflexivity|].
  destruct (Z.eqb_spec ((b0 / 2) mod 4) 2) as [->|]; [reflexivity|].
  destruct (Z.eqb_spec ((b0 / 2) mod 4) 3) as [->|]; [reflexivity|]. lia.
Qed.

Lemma block_last_field b0 : is_last b0 = (b0 mod 2 =? 1).
Proof. reflexivity. Qed.

Lemma block_too_large_refused b0 b1 b2 : 0 <= b0 < 256 -> 0 <= b1 < 256 -> 0 <= b2 < 256 ->
  (b0 + 256 * b1 + 65536 * b2) / 8 > 131072 -> block_content_size b0 b1 b2 = RErr "BlockSizeTooLarge"%string.
Proof.
  intros H0 H1 H2 H. unfold block_content_size. rewrite block_size_field by assumption.
  change MAX_BLOCK_SIZE with 131072. destruct (Z.gtb_spec ((b0 + 256 * b1 + 65536 * b2) / 8) 131072); [reflexivity|lia].
Qed.

Lemma block_size_accepted b0 b1 b2 : 0 <= b0 < 256 -> 0 <= b1 < 256 -> 0 <= b2 < 256 ->
  (b0 + 256 * b1 + 65536 * b2) / 8 <= 131072 ->
  block_content_size b0 b1 b2 = ROk ((b0 + 256 * b1 + 65536 * b2) / 8).
Proof.
  intros H0 H1 H2 H. unfold block_content_size. rewrite block_size_field by assumption.
  change MAX_BLOCK_SIZE with 131072. destruct (Z.gtb_spec ((b0 + 256 * b1 + 65536 * b2) / 8) 131072); [lia|reflexivity].
Qed.

Lemma block_header_roundtrip ty size last :
  0 <= ty <= 2 -> 0 <= size < 2 ^ 21 ->
  exists b0 b1 b2, block_header_serialize ty size last [] = ROk (tt, [b0; b1; b2]) /\
    0 <= b0 < 256 /\ 0 <= b1 < 256 /\ 0 <= b2 < 256 /\
    is_last b0 = last /\ block_type b0 = ROk ty /\ block_content_size_unchecked b0 b1 b2 = size.
Proof.
  intros Hty Hsz. change (2 ^ 21) with 2097152 in Hsz.
  set (h := size * 8 + ty * 2 + (if last then 1 else 0)).
  assert (block_header_serialize ty size last [] = ROk (tt, le_bytes 3 h)) as E.
  { unfold block_header_serialize, h. change (2 ^ 3) with 8. change (2 ^ 1) with 2.
    assert (forall t, 0 <= t <= 2 ->
      Z.lor (Z.lor ((size * 8) mod 4294967296) ((t * 2) mod 4294967296)) (if last then 1 else 0)
      = size * 8 + t * 2 + (if last then 1 else 0)) as L.
    { intros t Ht. rewrite !Z.mod_small by lia.
      rewrite (Z.lor_comm (size * 8) (t * 2)).
      change 8 with (2 ^ 3).
      rewrite (lor_low_shifted (t * 2) size 3) by (change (2 ^ 3) with 8; lia).
      replace (t * 2 + size * 2 ^ 3) with ((t + size * 4) * 2 ^ 1) by (change (2 ^ 3) with 8; change (2 ^ 1) with 2; lia).
      rewrite Z.lor_comm. rewrite (lor_low_shifted _ (t + size * 4) 1) by (destruct last; change (2 ^ 1) with 2; lia).
      change (2 ^ 1) with 2. change (2 ^ 3) with 8. lia. }
    destruct (Z.eqb_spec ty 0) as [->|]; [cbn [app]; rewrite (L 0) by lia; reflexivity|].
    destruct (Z.eqb_spec ty 1) as [->|]; [cbn [app]; rewrite (L 1) by lia; reflexivity|].
    destruct (Z.eqb_spec ty 2) as [->|]; [cbn [app]; rewrite (L 2) by lia; reflexivity|]. lia. }
  assert (0 <= h < 2 ^ 24) as Hh by (unfold h; change (2 ^ 24) with 16777216; destruct last; lia).
  change (2 ^ 24) with 16777216 in Hh.
  exists (h mod 256), ((h / 256) mod 256), ((h / 256 / 256) mod 256).
  split; [rewrite E; reflexivity|].
  pose proof (Z.mod_pos_bound h 256 ltac:(lia)).
  pose proof (Z.mod_pos_bound (h / 256) 256 ltac:(lia)).
  pose proof (Z.mod_pos_bound (h / 256 / 256) 256 ltac:(lia)).
  repeat split; try lia.
  - unfold is_last. unfold h. destruct last.
    + assert ((size * 8 + ty * 2 + 1) mod 256 mod 2 = 1) as -> by lia. reflexivity.
    + assert ((size * 8 + ty * 2 + 0) mod 256 mod 2 = 0) as -> by lia. reflexivity.
  - rewrite block_type_field by lia. f_equal. unfold h. destruct last; lia.
  - rewrite block_size_field by lia. unfold h. destruct last; lia.
Qed.

Lemma block_header_reserved_type_panics size last : is_panic (block_header_serialize 3 size last []) = true.
Proof. reflexivity. Qed.

(** RFC 8878, 3.1.1.1.2: exponent in the upper five bits, mantissa in the lower three *)
Definition spec_window (wd : Z) : Z :=
  let e := wd / 8 in let m := wd mod 8 in 2 ^ (10 + e) + (2 ^ (10 + e) / 8) * m.

Definition window_check (wd : Z) : bool :=
  (match window_size wd 0 0 with
   | ROk w => (w =? spec_window wd) && (MIN_WINDOW_SIZE <=? w) && (w <=? MAX_WINDOW_SIZE)
   | _ => false
   end) && window_size_safe wd 0 0.

Lemma window_sweep : sweep window_check 0 256 = true.
Proof. vm_compute. reflexivity. Qed.

Lemma single_segment_bit d : single_segment_flag d = ((d / 32) mod 2 =? 1).
Proof. reflexivity. Qed.

Lemma window_checked wd : 0 <= wd < 256 ->
  window_size wd 0 0 = ROk (spec_window wd) /\ MIN_WINDOW_SIZE <= spec_window wd <= MAX_WINDOW_SIZE.
Proof.
  intros H. pose proof (sweep_spec _ _ _ window_sweep wd H) as C. unfold window_check in C.
  apply andb_true_iff in C as [C _]. destruct (window_size wd 0 0) as [w| |]; try discriminate.
  assert (w = spec_window wd) as -> by lia. split; [reflexivity|lia].
Qed.

(** every window descriptor byte is legal and means the RFC's formula (minimum 1 KiB at 0x00, maximum
    2^41 + 7 * 2^38 at 0xFF); with the single-segment flag the window is the content size *)
Lemma window_size_spec wd d fcs : 0 <= wd < 256 ->
  window_size wd d fcs = if single_segment_flag d then ROk fcs else ROk (spec_window wd).
Proof.
  intros H. unfold window_size. destruct (single_segment_flag d); [reflexivity|].
  exact (proj1 (window_checked wd H)).
Qed.

Lemma window_bounds wd : 0 <= wd < 256 -> 1024 <= spec_window wd <= 2 ^ 41 + 7 * 2 ^ 38.
Proof. intros H. exact (proj2 (window_checked wd H)). Qed.

Lemma window_consts : MIN_WINDOW_SIZE = 1024 /\ MAX_WINDOW_SIZE = 2 ^ 41 + 7 * 2 ^ 38 /\ MAX_BLOCK_SIZE = 131072 /\
                      MAGIC_NUM = 4247762216 /\ DEFAULT_MAX_WINDOW_SIZE = 128 * 1024 * 1024.
Proof. repeat split; reflexivity. Qed.
