(** C02 / C16: the side conditions [huf_side_b] of the Huffman literal block theorem hold for EVERY table the decoder
    builds and every literal string made of symbols that table delivers (16 .. 128 Ki literals): the code read off the
    table is well formed and resolved, and no stream reaches the 64 KiB jump-table limit. *)
Require Import Zrs.lib.RsPrelude Zrs.proofs.ModelFacts Zrs.lib.ListFacts Zrs.model.BitStream Zrs.model.HufDec Zrs.model.BlockDec Zrs.model.LitEnc Zrs.model.BlockEnc.
Require Import Zrs.proofs.C13_Stream Zrs.proofs.C13_CanonCode.
Open Scope Z_scope.

Lemma huf_build_decoder_inv h src t used : huf_build_decoder h src = ROk (t, used) ->
  read_weights h src = ROk (ht_weights t, ht_fse t, used) /\
  build_table_from_weights (ht_weights t) = ROk (ht_decode t, ht_max_bits t, ht_bits t, ht_bit_ranks t, ht_rank_indexes t).
Proof.
  unfold huf_build_decoder. destruct (read_weights h src) as [[[ws ft] bytes]|e|e]; cbn [rbind]; try discriminate.
  destruct (build_table_from_weights ws) as [[[[[dec M] bits] ranks] idxs]|e|e] eqn:Eb; cbn [rbind]; try discriminate.
  intros E. injection E as <- <-. split; [reflexivity|exact Eb].
Qed.
Lemma huf_build_decoder_intro h src ws ft used dec M bits ranks idxs :
  read_weights h src = ROk (ws, ft, used) -> build_table_from_weights ws = ROk (dec, M, bits, ranks, idxs) ->
  exists t, huf_build_decoder h src = ROk (t, used) /\ ht_weights t = ws /\ ht_fse t = ft /\ ht_decode t = dec /\ ht_max_bits t = M.
Proof. intros Hr Hb. unfold huf_build_decoder. rewrite Hr. cbn [rbind]. rewrite Hb. eexists. repeat split. Qed.

Lemma fields_bits_bound fs b : Forall (fun f => (snd f <= b)%nat) fs -> (length (fields_bits fs) <= b * length fs)%nat.
Proof.
  induction 1 as [|f t Hf _ IH]; cbn [fields_bits flat_map length]; [lia|].
  rewrite app_length, byte_bits_lsb_length. fold (fields_bits t). lia.
Qed.

(** [n] fields of at most [b] bits: [n * b] bits, then the end mark and the padding, at most 8 bits more *)
Lemma stream_bytes_bound fs b : Forall (fun f => (snd f <= b)%nat) fs -> 8 * zlen (stream_bytes fs) <= Z.of_nat (b * length fs) + 8.
Proof.
  intros H. unfold zlen. rewrite <- (stream_len fs). unfold stream_bits. rewrite app_length. cbn [length]. rewrite repeat_length.
  pose proof (fields_bits_bound fs b H). pose proof (Nat.mod_upper_bound (length (fields_bits fs)) 8 ltac:(lia)). lia.
Qed.

Lemma hstream_bound code data mn : (mn <= 11)%nat -> Z.of_nat (length data) <= 32768 ->
  Forall (fun s => code_ok_b mn code s = true) data -> zlen (hstream code data) < 65536.
Proof.
  intros Hmn Hlen Hok. unfold hstream.
  assert (F : Forall (fun f : field => (snd f <= 11)%nat) (map code (rev data))).
  { apply Forall_forall. intros f Hf. apply in_map_iff in Hf as (s & <- & Hs). apply in_rev in Hs.
    rewrite Forall_forall in Hok. specialize (Hok s Hs). unfold code_ok_b in Hok.
    apply andb_true_iff in Hok as [Hok _]. apply andb_true_iff in Hok as [Hok _]. apply andb_true_iff in Hok as [_ Hok]. apply Nat.leb_le in Hok. lia. }
  pose proof (stream_bytes_bound _ 11 F) as B. rewrite map_length, rev_length in B. lia.
Qed.

(** what the decoder's table gives for literals it delivers: the code read off it is well formed and resolved, and
    each of the first three streams, coding at most a quarter of at most 128 Ki literals, stays below 64 KiB *)
Lemma built_table_sides ht src t used lits : huf_build_decoder ht src = ROk (t, used) ->
  Forall (fun w => 0 <= w) (ht_weights t) -> (length (ht_weights t) <= 255)%nat ->
  Z.of_nat (length lits) <= 131072 ->
  Forall (fun s => exists i, 0 <= i < 2 ^ ht_max_bits t /\ h_sym (nth_h (ht_decode t) i) = s) lits ->
  let mn := Z.to_nat (ht_max_bits t) in let code := code_of_dec t in
  table_side_b t mn = true /\
  (forall s, In s lits -> code_ok_b mn code s = true /\ resolves_b t mn code s = true) /\
  let '(a, b, c, _) := split4 lits in zlen (hstream code a) < 65536 /\ zlen (hstream code b) < 65536 /\ zlen (hstream code c) < 65536.
Proof.
  intros Hb Hw Hl Hn Hsyms mn code.
  destruct (decoder_table_side_conditions ht src t used Hb Hw Hl) as (Hts & Hall). cbn zeta in Hall.
  destruct (huf_build_decoder_inv _ _ _ _ Hb) as (_ & Hbt).
  destruct (C03_HufComplete.built_huffman_table_complete _ _ _ _ _ _ Hw Hbt) as (_ & HM & _). unfold MAX_MAX_NUM_BITS in HM.
  assert (Hok : forall s, In s lits -> code_ok_b mn code s = true /\ resolves_b t mn code s = true).
  { intros s Hs. rewrite Forall_forall in Hsyms. destruct (Hsyms s Hs) as (i & Hi & <-). apply Hall. exact Hi. }
  split; [exact Hts|]. split; [exact Hok|]. unfold split4.
  set (q := quarter (length lits)). assert (Hq : Z.of_nat q <= 32768).
  { unfold q, quarter. rewrite Nat2Z.inj_div. change (Z.of_nat 4) with 4. rewrite Nat2Z.inj_add. change (Z.of_nat 3) with 3.
    assert (Z.of_nat (length lits) + 3 < 4 * 32769) by lia. apply Z.lt_succ_r. apply Z.div_lt_upper_bound; lia. }
  assert (Hshort : forall l, (forall x, In x (firstn q l) -> In x lits) -> zlen (hstream code (firstn q l)) < 65536).
  { intros l Hin. apply (hstream_bound _ _ mn); [unfold mn; lia|pose proof (firstn_le_length q l); lia|].
    apply Forall_forall. intros x Hx. apply (Hok x (Hin x Hx)). }
  repeat split; apply Hshort; intros x Hx; apply firstn_In' in Hx; try apply skipn_In' in Hx; exact Hx.
Qed.

Theorem huf_side_holds ht src t used lits : huf_build_decoder ht src = ROk (t, used) ->
  Forall (fun w => 0 <= w) (ht_weights t) -> (length (ht_weights t) <= 255)%nat ->
  16 <= Z.of_nat (length lits) <= 131072 ->
  Forall (fun s => exists i, 0 <= i < 2 ^ ht_max_bits t /\ h_sym (nth_h (ht_decode t) i) = s) lits ->
  huf_side_b t (code_of_dec t) lits = true.
Proof.
  intros Hb Hw Hl Hn Hsyms. destruct (built_table_sides ht src t used lits Hb Hw Hl (proj2 Hn) Hsyms) as (Hts & Hok & Hs).
  unfold huf_side_b. destruct (split4 lits) as [[[a b] c] d]. destruct Hs as (S1 & S2 & S3). apply Z.ltb_lt in S1, S2, S3.
  rewrite Hts, S1, S2, S3. assert ((16 <=? length lits)%nat = true) as -> by (apply Nat.leb_le; lia). rewrite !andb_true_r.
  apply forallb_forall. intros s Hs. apply nodup_In in Hs. destruct (Hok s Hs) as (A & B). rewrite A, B. reflexivity.
Qed.
