(** C12: every table [build_decoding_table] returns is well-formed in the sense the stream theorems need: it has
    2^accuracy_log entries and no entry has a negative bit count -- for every probability vector whatsoever. *)
Require Import Zrs.lib.RsPrelude Zrs.proofs.ModelFacts Zrs.model.BitIO Zrs.model.FseDec.
Require Import Zrs.proofs.C12_SeqStream.
Open Scope Z_scope.

Definition bits_ok (l : list fse_entry) : Prop := Forall (fun e => 0 <= e_bits e) l.

Lemma bits_ok_upd l : forall i e, bits_ok l -> 0 <= e_bits e -> bits_ok (upd l i e).
Proof. induction l as [|h t IH]; intros i e Hl He; destruct i; cbn [upd]; inversion Hl; subst; constructor; auto. apply IH; assumption. Qed.

Lemma nth_e_bits l i : bits_ok l -> 0 <= e_bits (nth_e l i).
Proof.
  intros H. unfold nth_e. generalize (Z.to_nat i). intros n. revert n.
  induction H as [|x t Hx _ IH]; intros n; destruct n; cbn [nth]; try (cbn; lia); auto.
Qed.

Lemma entries0_ok n : bits_ok (entries0 n) /\ length (entries0 n) = n.
Proof.
  induction n as [|n (A & B)]; cbn [entries0 length].
  - split; [constructor|reflexivity].
  - split; [constructor; [cbn; lia|exact A]|congruence].
Qed.

Lemma place_negative_ok probs : forall sym al neg dec neg' dec', 0 <= al -> bits_ok dec ->
  place_negative probs sym al neg dec = ROk (neg', dec') -> bits_ok dec' /\ length dec' = length dec.
Proof.
  induction probs as [|p t IH]; intros sym al neg dec neg' dec' Hal Hd H; cbn [place_negative] in H.
  - injection H as _ <-. split; [exact Hd|reflexivity].
  - destruct (p =? -1).
    + destruct (neg <=? 0); [discriminate|].
      apply IH in H; [|exact Hal|apply bits_ok_upd; [exact Hd|cbn [e_bits]; lia]]. destruct H as (A & B). rewrite upd_length in B. split; assumption.
    + eapply IH; eassumption.
Qed.

Lemma spread_one_ok n : forall sym pos neg size dec pos' dec', bits_ok dec ->
  spread_one n sym pos neg size dec = ROk (pos', dec') -> bits_ok dec' /\ length dec' = length dec.
Proof.
  induction n as [|n IH]; intros sym pos neg size dec pos' dec' Hd H; cbn [spread_one] in H.
  - injection H as _ <-. split; [exact Hd|reflexivity].
  - destruct (Z.of_nat (length dec) <=? pos); [discriminate|].
    destruct (skip_taken _ _ _ _) as [p1|e|e]; cbn [rbind] in H; try discriminate.
    apply IH in H; [|apply bits_ok_upd; [exact Hd|cbn [e_bits]; apply nth_e_bits; exact Hd]]. destruct H as (A & B).
    rewrite upd_length in B. split; assumption.
Qed.

Lemma spread_ok probs : forall sym pos neg size dec dec', bits_ok dec ->
  spread probs sym pos neg size dec = ROk dec' -> bits_ok dec' /\ length dec' = length dec.
Proof.
  induction probs as [|p t IH]; intros sym pos neg size dec dec' Hd H; cbn [spread] in H.
  - injection H as <-. split; [exact Hd|reflexivity].
  - destruct (p <=? 0); [eapply IH; eassumption|].
    destruct (spread_one _ _ _ _ _ _) as [[p1 d1]|e|e] eqn:E1; cbn [rbind] in H; try discriminate.
    destruct (spread_one_ok _ _ _ _ _ _ _ _ Hd E1) as (A & B).
    destruct (IH _ _ _ _ _ _ A H) as (C & D). split; [exact C|congruence].
Qed.

Lemma calc_bits_nonneg total p k : 0 <= snd (calc_baseline_and_numbits total p k).
Proof.
  unfold calc_baseline_and_numbits. destruct (p =? 0); [cbn; lia|]. cbv zeta.
  set (slices := if 2 ^ (highest_bit_set p - 1) =? p then p else 2 ^ highest_bit_set p).
  unfold highest_bit_set at 1 2. pose proof (Z.log2_nonneg (total / slices)).
  destruct (k <? slices - p); cbn [snd]; lia.
Qed.

Lemma assign_ok n : forall idx size al probs counter dec counter' dec', bits_ok dec ->
  assign n idx size al probs counter dec = ROk (counter', dec') -> bits_ok dec' /\ length dec' = length dec.
Proof.
  induction n as [|n IH]; intros idx size al probs counter dec counter' dec' Hd H; cbn [assign] in H.
  - injection H as _ <-. split; [exact Hd|reflexivity].
  - destruct (Z.of_nat (length probs) <=? e_sym (nth_e dec idx)); [discriminate|].
    destruct (calc_baseline_and_numbits _ _ _) as [bl nb] eqn:Ec.
    destruct (al <? nb); [discriminate|].
    pose proof (calc_bits_nonneg size (if nth_z probs (e_sym (nth_e dec idx)) <? 0 then nth_z probs (e_sym (nth_e dec idx)) + 2 ^ 32 else nth_z probs (e_sym (nth_e dec idx)))
                  (nth_z counter (e_sym (nth_e dec idx)))) as Hnb.
    rewrite Ec in Hnb. cbn [snd] in Hnb.
    apply IH in H; [|apply bits_ok_upd; [exact Hd|cbn [e_bits]; exact Hnb]]. destruct H as (A & B).
    rewrite upd_length in B. split; assumption.
Qed.

Theorem built_table_is_well_formed t acc_log probs D : 0 < acc_log ->
  fse_build_from_probabilities t acc_log probs = ROk D -> table_wf D.
Proof.
  intros Hal H. unfold fse_build_from_probabilities in H.
  destruct (acc_log =? 0); [discriminate|].
  unfold build_decoding_table in H.
  destruct (_ <? _); [discriminate|].
  destruct (entries0_ok (Z.to_nat (2 ^ acc_log))) as (E0 & L0).
  destruct (place_negative _ _ _ _ _) as [[neg d1]|e|e] eqn:E1; cbn [rbind] in H; try discriminate.
  assert (Hal0 : 0 <= acc_log) by lia.
  destruct (place_negative_ok _ _ _ _ _ _ _ Hal0 E0 E1) as (B1 & L1).
  destruct (spread _ _ _ _ _ _) as [d2|e|e] eqn:E2; cbn [rbind] in H; try discriminate.
  destruct (spread_ok _ _ _ _ _ _ _ B1 E2) as (B2 & L2).
  destruct (assign _ _ _ _ _ _ _) as [[cn d3]|e|e] eqn:E3; cbn [rbind] in H; try discriminate.
  destruct (assign_ok _ _ _ _ _ _ _ _ _ B2 E3) as (B3 & L3).
  injection H as <-. unfold table_wf, t_len. cbn [t_decode t_acc_log].
  destruct (Z.eqb_spec acc_log 0); [lia|].
  split; [|split; [exact B3|exact Hal]].
  rewrite L3, L2, L1, L0. rewrite Z2Nat.id; [reflexivity|]. apply Z.pow_nonneg. lia.
Qed.
