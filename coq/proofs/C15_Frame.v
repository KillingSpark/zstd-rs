(** C15 / C02: structure of the frames the compressor emits, for EVERY block-level encoder ([cblock] etc. are
    universally quantified): how the input is cut into blocks whatever the reader's fragmentation, what each block
    looks like, the size bound. *)
Require Import Zrs.lib.RsPrelude Zrs.lib.ResFacts Zrs.lib.ListFacts Zrs.gen.Generated Zrs.model.Headers Zrs.model.FseDec Zrs.model.BlockDec Zrs.model.FrameDec Zrs.model.FrameEnc.
Require Import Zrs.proofs.C14_Headers.
Open Scope Z_scope.

Lemma rd_read_spec r space : (1 <= space)%nat ->
  exists got, (got <= space)%nat /\ (got <= length (rd_data r))%nat /\ (got = 0%nat -> rd_data r = []) /\
    rd_read r space = (firstn got (rd_data r), {| rd_data := skipn got (rd_data r); rd_script := tl (rd_script r) |}).
Proof.
  intros H. unfold rd_read.
  set (want := match rd_script r with [] => space | n :: _ => Nat.min space (S n) end).
  assert (Hw : (1 <= want <= space)%nat) by (unfold want; destruct (rd_script r); lia).
  destruct (Nat.le_gt_cases want (length (rd_data r))) as [Hle|Hgt].
  - exists want. repeat split; try lia.
  - exists (length (rd_data r)). rewrite firstn_all, skipn_all, firstn_all2, skipn_all2 by lia.
    repeat split; try lia. apply length_zero_iff_nil.
Qed.

Lemma fill_block_firstn fuel : forall slice acc r,
  (length acc < slice)%nat -> (slice - length acc < fuel)%nat ->
  exists r', fill_block fuel slice acc r =
      ROk (acc ++ firstn (slice - length acc) (rd_data r), negb (slice - length acc <=? length (rd_data r))%nat, r') /\
    rd_data r' = skipn (slice - length acc) (rd_data r).
Proof.
  induction fuel as [|f IH]; intros slice acc r Hacc Hf; [lia|].
  cbn [fill_block].
  destruct (rd_read_spec r (slice - length acc)) as (g & Hg & Hgd & Hg0 & E); [lia|]. rewrite E.
  destruct (firstn g (rd_data r)) as [|g0 gt] eqn:Eg.
  - (* nothing was read: the source is exhausted *)
    assert (Hd : rd_data r = []).
    { apply Hg0. apply (f_equal (@length Z)) in Eg. rewrite firstn_length in Eg. cbn [length] in Eg. lia. }
    rewrite Hd, firstn_nil, app_nil_r. cbn [length rd_data]. rewrite !skipn_nil.
    destruct (Nat.leb_spec (slice - length acc) 0) as [|_]; [lia|]. eexists. split; reflexivity.
  - rewrite <- Eg.
    assert (Lg : length (firstn g (rd_data r)) = g) by (rewrite firstn_length; lia).
    assert (Hpos : (1 <= g)%nat) by (rewrite <- Lg, Eg; cbn [length]; lia).
    rewrite app_length, Lg.
    destruct (Nat.eqb_spec (length acc + g) slice) as [Hfull|Hpart].
    + replace (slice - length acc)%nat with g by lia.
      destruct (Nat.leb_spec g (length (rd_data r))) as [_|]; [|lia]. eexists. split; reflexivity.
    + (* the block is not full yet: the next round asks for the remaining [k] bytes *)
      destruct (IH slice (acc ++ firstn g (rd_data r)) {| rd_data := skipn g (rd_data r); rd_script := tl (rd_script r) |})
        as (r' & E1 & D1); [rewrite app_length; lia|rewrite app_length; lia|].
      rewrite E1. exists r'. rewrite D1, app_length, Lg. cbn [rd_data]. rewrite skipn_length, skipn_add, <- app_assoc.
      set (k := (slice - (length acc + g))%nat). replace (slice - length acc)%nat with (g + k)%nat by lia.
      rewrite firstn_split. split; [|reflexivity]. do 4 f_equal.
      apply Bool.eq_iff_eq_true. rewrite !Nat.leb_le. lia.
Qed.

Lemma fill_block_spec fuel : forall slice acc r,
  (length acc < slice)%nat -> (slice - length acc < fuel)%nat ->
  exists r', fill_block fuel slice acc r =
    (if (slice - length acc <=? length (rd_data r))%nat
     then ROk (acc ++ firstn (slice - length acc) (rd_data r), false, r')
     else ROk (acc ++ rd_data r, true, r')) /\
    rd_data r' = skipn (slice - length acc) (rd_data r).
Proof.
  intros slice acc r Hacc Hf. destruct (fill_block_firstn fuel slice acc r Hacc Hf) as (r' & E & D).
  exists r'. split; [|exact D]. rewrite E.
  destruct (Nat.leb_spec (slice - length acc) (length (rd_data r))) as [|Hlt]; [reflexivity|].
  rewrite firstn_all2 by lia. reflexivity.
Qed.

(** how [compress_loop] cuts the input: slices of [slice] bytes, then a last block with what is left -- the empty block
    when the input ends on a slice boundary *)
Fixpoint blocks_of (fuel : nat) (slice : nat) (data : list Z) : list (list Z * bool) :=
  match fuel with
  | O => []
  | S f => if (slice <=? length data)%nat then (firstn slice data, false) :: blocks_of f slice (skipn slice data)
           else [(data, true)]
  end.

Lemma blocks_of_total fuel : forall slice data, (1 <= slice)%nat -> (length data < fuel)%nat ->
  concat (map fst (blocks_of fuel slice data)) = data /\
  length (blocks_of fuel slice data) = (length data / slice + 1)%nat /\
  Forall (fun b => (length (fst b) <= slice)%nat) (blocks_of fuel slice data).
Proof.
  induction fuel as [|f IH]; intros slice data Hs Hf; [lia|]. cbn [blocks_of].
  destruct (Nat.leb_spec slice (length data)) as [Hfull|Hlast].
  - destruct (IH slice (skipn slice data) Hs) as (C & L & F); [rewrite skipn_length; lia|].
    cbn [map concat fst length]. rewrite C, L, firstn_skipn, skipn_length. split; [reflexivity|]. split.
    + replace (length data) with ((length data - slice) + 1 * slice)%nat at 2 by lia.
      rewrite Nat.div_add by lia. lia.
    + constructor; [cbn [fst]; rewrite firstn_length; lia|exact F].
  - cbn [map concat fst length]. rewrite app_nil_r, Nat.div_small by lia. repeat split. constructor; [cbn [fst]; lia|constructor].
Qed.

Lemma blocks_of_shape fuel : forall slice data, (1 <= slice)%nat -> (length data < fuel)%nat ->
  exists pre blk, blocks_of fuel slice data = pre ++ [(blk, true)] /\ Forall (fun b => snd b = false /\ fst b <> []) pre.
Proof.
  induction fuel as [|f IH]; intros slice data Hs Hf; [lia|]. cbn [blocks_of].
  destruct (Nat.leb_spec slice (length data)) as [Hfull|Hlast].
  - destruct (IH slice (skipn slice data) Hs) as (pre & blk & E & F); [rewrite skipn_length; lia|].
    exists ((firstn slice data, false) :: pre), blk. rewrite E. split; [reflexivity|].
    constructor; [|exact F]. cbn [fst snd]. split; [reflexivity|].
    intros E0. apply (f_equal (@length Z)) in E0. rewrite firstn_length in E0. cbn in E0. lia.
  - exists [], data. split; [reflexivity|constructor].
Qed.

Lemma block_header_len ty size last hdr : block_header_serialize ty size last [] = ROk (tt, hdr) -> length hdr = 3%nat.
Proof.
  unfold block_header_serialize. cbv zeta.
  destruct (ty =? 0); [intros [= <-]; reflexivity|]. destruct (ty =? 1); [intros [= <-]; reflexivity|].
  destruct (ty =? 2); [intros [= <-]; reflexivity|]. destruct (ty =? 3); discriminate.
Qed.

Lemma block_bytes_len ty size last payload b : block_bytes ty size last payload = ROk b -> length b = (3 + length payload)%nat.
Proof.
  unfold block_bytes. intros H. apply rbind_ok in H as ([[] hdr] & E & [= <-]).
  rewrite app_length, (block_header_len _ _ _ _ E). reflexivity.
Qed.

(** every branch of the block encoders ends in this form *)
Lemma block_bytes_with {C} ty size last payload (c c' : C) b :
  (let* x := block_bytes ty size last payload in ROk (x, c)) = ROk (b, c') -> block_bytes ty size last payload = ROk b /\ c' = c.
Proof. intros H. apply rbind_ok in H as (x & E & [= <- <-]). split; [exact E|reflexivity]. Qed.

Lemma read_exact_app (d rest : list Z) : read_exact (Z.of_nat (length d)) (d ++ rest) = Some (d, rest).
Proof.
  unfold read_exact, zlen, take_z, drop_z. rewrite app_length, Nat2Z.id.
  destruct (Z.ltb_spec (Z.of_nat (length d + length rest)) (Z.of_nat (length d))) as [|_]; [lia|].
  rewrite firstn_app, Nat.sub_diag, firstn_all, skipn_app, Nat.sub_diag, skipn_all. cbn. rewrite app_nil_r. reflexivity.
Qed.

Lemma block_header_read ty size last payload rest :
  0 <= ty <= 2 -> (Z.of_nat size <= 131072) ->
  exists hdr, block_bytes ty size last payload = ROk (hdr ++ payload) /\ length hdr = 3%nat /\
    read_block_header_src ((hdr ++ payload) ++ rest) =
      ROk (last, ty, (if (ty =? 0) || (ty =? 1) then Z.of_nat size else 0), (if ty =? 1 then 1 else Z.of_nat size), payload ++ rest).
Proof.
  intros Hty Hsz.
  destruct (block_header_roundtrip ty (Z.of_nat size) last Hty) as (b0 & b1 & b2 & E & R0 & R1 & R2 & L & T & Sz).
  { change (2 ^ 21) with 2097152. lia. }
  exists [b0; b1; b2]. unfold block_bytes. rewrite E. cbn [rbind]. split; [reflexivity|]. split; [reflexivity|].
  unfold read_block_header_src. rewrite <- app_assoc. change 3 with (Z.of_nat (length [b0; b1; b2])). rewrite read_exact_app.
  unfold nth_z. change (Z.to_nat 0) with 0%nat. change (Z.to_nat 1) with 1%nat. change (Z.to_nat 2) with 2%nat. cbn [nth].
  unfold read_block_header. rewrite T. cbn [rbind].
  destruct (Z.eqb_spec ty 3) as [|_]; [lia|].
  assert (Hs : block_content_size b0 b1 b2 = ROk (Z.of_nat size)).
  { rewrite block_size_field in Sz by assumption. rewrite block_size_accepted by (try assumption; lia). rewrite Sz. reflexivity. }
  rewrite Hs. cbn [rbind]. rewrite L. reflexivity.
Qed.

Section Structure.
  Variable cstate : Type.
  Variable cblock : cstate -> list Z -> list Z * cstate.
  Variable cskip : cstate -> list Z -> cstate.
  Variable cfallback : cstate -> cstate.
  Variable creset : cstate -> cstate.
  Notation enc_block := (enc_block cstate cblock cskip cfallback).
  Notation compress_loop := (compress_loop cstate cblock cskip cfallback).

  (** the empty block is written as a raw last block of size 0, without asking the block encoder *)
  Fixpoint enc_blocks (lv : level) (cs : cstate) (bl : list (list Z * bool)) : res (list Z * cstate) :=
    match bl with
    | [] => ROk ([], cs)
    | (blk, last) :: t =>
        match blk with
        | [] => let* b := block_bytes 0 0 true [] in ROk (b, cs)
        | _ => let* (b, cs') := enc_block lv cs last blk in
               if last then ROk (b, cs')
               else let* (rest, cs'') := enc_blocks lv cs' t in ROk (b ++ rest, cs'')
        end
    end.

  Lemma enc_blocks_cons lv cs blk last t : blk <> [] ->
    enc_blocks lv cs ((blk, last) :: t) =
      let* (b, cs') := enc_block lv cs last blk in
      if last then ROk (b, cs') else let* (rest, cs'') := enc_blocks lv cs' t in ROk (b ++ rest, cs'').
  Proof. destruct blk; [congruence|reflexivity]. Qed.

  Definition drop_reader (x : res (list Z * cstate * reader)) : res (list Z * cstate) :=
    match x with ROk (o, c, _) => ROk (o, c) | RErr e => RErr e | RPanic e => RPanic e end.

  Lemma compress_loop_spec fuel : forall lv slice cs r out,
    (1 <= slice)%nat -> (length (rd_data r) < fuel)%nat ->
    drop_reader (compress_loop fuel lv slice cs r out) =
      (let* (bs, cs') := enc_blocks lv cs (blocks_of fuel slice (rd_data r)) in ROk (out ++ bs, cs')).
  Proof using creset. (* [creset] is not used; props/C02.v passes it *)
    induction fuel as [|f IH]; intros lv slice cs r out Hs Hf; [lia|].
    cbn [FrameEnc.compress_loop blocks_of].
    destruct (fill_block_spec (S slice) slice [] r) as (r1 & Ef & Dr); [cbn; lia|cbn; lia|].
    cbn [length app] in Ef, Dr. rewrite Nat.sub_0_r in Ef, Dr. rewrite Ef.
    destruct (Nat.leb_spec slice (length (rd_data r))) as [Hfull|Hlast]; cbn [rbind enc_blocks].
    - destruct (firstn slice (rd_data r)) as [|b0 bt] eqn:Eb.
      { apply (f_equal (@length Z)) in Eb. rewrite firstn_length in Eb. cbn in Eb. lia. }
      destruct (enc_block lv cs false (b0 :: bt)) as [[b cs1]|e|e]; cbn [rbind drop_reader]; try reflexivity.
      rewrite IH; [|exact Hs|rewrite Dr, skipn_length; lia]. rewrite Dr.
      destruct (enc_blocks lv cs1 (blocks_of f slice (skipn slice (rd_data r)))) as [[rest cs2]|e|e]; cbn [rbind]; try reflexivity.
      rewrite app_assoc. reflexivity.
    - destruct (rd_data r) as [|d0 dt] eqn:Ed.
      + destruct (block_bytes 0 0 true []) as [b|e|e]; cbn [rbind drop_reader]; reflexivity.
      + destruct (enc_block lv cs true (d0 :: dt)) as [[b cs1]|e|e]; cbn [rbind drop_reader]; reflexivity.
  Qed.

  Lemma compress_frame_spec lv slice wsize hash32 cs data script : (1 <= slice)%nat ->
    drop_reader (compress_frame cstate cblock cskip cfallback creset lv slice wsize hash32 cs {| rd_data := data; rd_script := script |}) =
      (let* (bs, cs') := enc_blocks lv (creset cs) (blocks_of (S (length data)) slice data) in
       ROk (frame_header_bytes (Z.max wsize MAX_BLOCK_SIZE) (is_some hash32) ++ bs ++
              match hash32 with Some h => h data | None => [] end, cs')).
  Proof.
    intros Hs. unfold compress_frame. cbn [rd_data].
    pose proof (compress_loop_spec (S (length data)) lv slice (creset cs) {| rd_data := data; rd_script := script |}
                  (frame_header_bytes (Z.max wsize MAX_BLOCK_SIZE) (is_some hash32)) Hs (Nat.lt_succ_diag_r _)) as L.
    cbn [rd_data] in L.
    destruct (compress_loop (S (length data)) lv slice (creset cs) _ _) as [[[o c] rr]|e|e];
      destruct (enc_blocks lv (creset cs) (blocks_of (S (length data)) slice data)) as [[bs cs2]|e2|e2];
      cbn [rbind drop_reader] in *; try discriminate L; try exact L.
    injection L as -> ->. rewrite app_assoc. reflexivity.
  Qed.

  Theorem compress_frame_shape lv slice wsize hash32 cs data script out cs' r' : (1 <= slice)%nat ->
    compress_frame cstate cblock cskip cfallback creset lv slice wsize hash32 cs {| rd_data := data; rd_script := script |} = ROk (out, cs', r') ->
    exists bs, enc_blocks lv (creset cs) (blocks_of (S (length data)) slice data) = ROk (bs, cs') /\
      out = frame_header_bytes (Z.max wsize MAX_BLOCK_SIZE) (is_some hash32) ++ bs ++ match hash32 with Some h => h data | None => [] end.
  Proof.
    intros Hs H. pose proof (compress_frame_spec lv slice wsize hash32 cs data script Hs) as L.
    rewrite H in L. cbn [drop_reader] in L. symmetry in L. apply rbind_ok in L as ([bs cs2] & E & [= <- <-]).
    exists bs. split; [exact E|reflexivity].
  Qed.

  (** same input, same compressor state: the frame built with the hash feature is the frame built without it, with
      descriptor bit 2 set and the four checksum bytes appended; blocks are identical *)
  Theorem hash_feature_only_adds_flag_and_trailer lv slice wsize h cs data script out1 c1 r1 out0 c0 r0 : (1 <= slice)%nat ->
    compress_frame cstate cblock cskip cfallback creset lv slice wsize (Some h) cs {| rd_data := data; rd_script := script |} = ROk (out1, c1, r1) ->
    compress_frame cstate cblock cskip cfallback creset lv slice wsize None cs {| rd_data := data; rd_script := script |} = ROk (out0, c0, r0) ->
    exists bs, out0 = frame_header_bytes (Z.max wsize MAX_BLOCK_SIZE) false ++ bs /\
               out1 = frame_header_bytes (Z.max wsize MAX_BLOCK_SIZE) true ++ bs ++ h data /\ c0 = c1.
  Proof.
    intros Hs H1 H0.
    destruct (compress_frame_shape _ _ _ _ _ _ _ _ _ _ Hs H1) as (bs1 & E1 & O1).
    destruct (compress_frame_shape _ _ _ _ _ _ _ _ _ _ Hs H0) as (bs0 & E0 & O0).
    rewrite E1 in E0. injection E0 as <- <-. exists bs1. cbn [is_some] in *. rewrite app_nil_r in O0. repeat split; assumption.
  Qed.

  (** whatever the block encoder returns, an emitted block is never larger than the raw block *)
  Lemma enc_block_size lv cs last blk b cs' : blk <> [] ->
    enc_block lv cs last blk = ROk (b, cs') -> (length b <= 3 + length blk)%nat.
  Proof using creset. (* as above, for props/C15.v *)
    intros Hne H.
    assert (Hrle : (length [nth 0 blk 0%Z] <= length blk)%nat) by (destruct blk; [congruence|cbn [length]; lia]).
    destruct lv; cbn [FrameEnc.enc_block] in H; [|unfold enc_block_fastest in H; destruct (all_same blk)].
    - apply block_bytes_with in H as [H _]. apply block_bytes_len in H. lia.
    - apply block_bytes_with in H as [H _]. apply block_bytes_len in H. lia.
    - destruct (cblock cs blk) as [body cs1].
      destruct ((length blk <=? length body)%nat || (MAX_BLOCK_SIZE <? Z.of_nat (length body))) eqn:Efb;
        apply block_bytes_with in H as [H _]; apply block_bytes_len in H; [lia|].
      (* the compressed form is only used when it is strictly smaller *)
      apply Bool.orb_false_iff in Efb. destruct Efb as [E1 _]. apply Nat.leb_gt in E1. lia.
  Qed.

  Lemma enc_blocks_size lv : forall bl cs out cs',
    enc_blocks lv cs bl = ROk (out, cs') ->
    (length out <= 3 * length bl + length (concat (map fst bl)))%nat.
  Proof.
    induction bl as [|[blk last] t IH]; intros cs out cs' H.
    - injection H as <- _. cbn. lia.
    - cbn [map concat fst length]. rewrite app_length.
      destruct blk as [|b0 bt].
      + apply block_bytes_with in H as [H _]. apply block_bytes_len in H. cbn [length] in *. lia.
      + rewrite enc_blocks_cons in H by discriminate. apply rbind_ok in H as ([b cs1] & E & H).
        apply enc_block_size in E; [|discriminate].
        destruct last; [injection H as <- _; lia|].
        apply rbind_ok in H as ([rest cs2] & Er & [= <- _]). apply IH in Er. rewrite app_length. lia.
  Qed.

  (** the frame is never larger than the input plus fixed framing: 6 header bytes, 3 per block, the checksum *)
  Theorem frame_size_bound lv slice wsize hash32 cs data script out cs' r' :
    (1 <= slice)%nat -> (forall h x, hash32 = Some h -> length (h x) = 4%nat) ->
    compress_frame cstate cblock cskip cfallback creset lv slice wsize hash32 cs {| rd_data := data; rd_script := script |} = ROk (out, cs', r') ->
    (length out <= 6 + length data + 3 * (length data / slice + 1) + (if is_some hash32 then 4 else 0))%nat.
  Proof.
    intros Hs Hh H. destruct (compress_frame_shape _ _ _ _ _ _ _ _ _ _ Hs H) as (bs & Eb & ->).
    apply enc_blocks_size in Eb.
    destruct (blocks_of_total (S (length data)) slice data Hs (Nat.lt_succ_diag_r _)) as (C & Ln & _).
    rewrite C, Ln in Eb. rewrite !app_length. change (length (frame_header_bytes _ _)) with 6%nat.
    destruct hash32 as [h|]; cbn [is_some]; [rewrite (Hh h data eq_refl)|cbn [length]]; lia.
  Qed.
End Structure.
