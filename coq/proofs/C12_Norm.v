(** C12: the compressor's normaliser.  For every histogram of at least two entries with a positive last entry it
    either returns a normalised distribution -- every probability between 0 and half the table, total exactly
    2^accuracy_log, accuracy log within 5..max_log, symbols that occur keep a probability >= 1 (so the last entry is
    non-zero and the table description round trip C12_table_description_roundtrip applies to it) -- or fails, which
    it can only do when the largest table has no room for every symbol. *)
Require Import Zrs.lib.RsPrelude Zrs.proofs.ModelFacts Zrs.lib.ListFacts Zrs.model.FseDec Zrs.model.FseEnc Zrs.model.FseNorm.
Require Import Zrs.proofs.C12_Desc.
Open Scope Z_scope.

Lemma zsum_upd l : forall i v, (i < length l)%nat -> zsum (upd l i v) = zsum l - nth i l 0 + v.
Proof.
  induction l as [|h t IH]; intros i v Hi; [cbn in Hi; lia|]. destruct i as [|i]; cbn [upd zsum fold_right nth].
  - lia.
  - fold (zsum (upd t i v)) (zsum t). rewrite IH by (cbn in Hi; lia). lia.
Qed.

Lemma zsum_nonneg l : Forall (fun p => 0 <= p) l -> 0 <= zsum l.
Proof. induction 1 as [|p t Hp _ IH]; [cbn; lia|]. cbn [zsum fold_right]. fold (zsum t). lia. Qed.

Lemma zsum_ge_elem l x : Forall (fun p => 0 <= p) l -> In x l -> x <= zsum l.
Proof.
  induction 1 as [|p t Hp Ht IH]; intros Hin; [contradiction|]. cbn [zsum fold_right]. fold (zsum t).
  pose proof (zsum_nonneg t Ht). destruct Hin as [->|Hin]; [lia|specialize (IH Hin); lia].
Qed.

Lemma zsum_split_filter l v : Forall (fun p => 0 <= p) l ->
  zsum l = zsum (filter (fun x => negb (x =? v)) l) + v * Z.of_nat (length (filter (fun x => x =? v) l)).
Proof.
  induction 1 as [|p t Hp _ IH]; [cbn; lia|]. cbn [filter zsum fold_right]. fold (zsum t). destruct (Z.eqb_spec p v) as [->|Hn]; cbn [negb].
  - cbn [length]. fold (zsum (filter (fun x => negb (x =? v)) t)). lia.
  - cbn [zsum fold_right]. fold (zsum (filter (fun x => negb (x =? v)) t)). lia.
Qed.

Lemma zsum_ge1 l : Forall (fun p => 0 <= p) l -> (exists k, 1 <= nth k l 0) -> 1 <= zsum l.
Proof.
  intros Hnn (k & Hk). revert k Hk. induction Hnn as [|p t Hp Ht IH]; intros k Hk; [destruct k; cbn in Hk; lia|].
  cbn [zsum fold_right]. fold (zsum t). pose proof (zsum_nonneg t Ht). destruct k; cbn [nth] in Hk; [lia|specialize (IH k Hk); lia].
Qed.

Lemma zsum_nonpos l M : M <= 0 -> Forall (fun x => x <= M) l -> zsum l <= 0.
Proof. intros HM. induction 1 as [|x t Hx _ IH]; cbn [zsum fold_right]; [lia|]. fold (zsum t). lia. Qed.

Lemma Forall2_len {A B} (P : A -> B -> Prop) a b : Forall2 P a b -> length a = length b.
Proof. induction 1; cbn [length]; congruence. Qed.

Lemma zeros_nonneg k : Forall (fun c => 0 <= c) (zeros k).
Proof. induction k; cbn [zeros]; constructor; [lia|assumption]. Qed.
Lemma zeros_length k : length (zeros k) = k.
Proof. exact (zeros_len k). Qed.

Lemma weight_is_sum l : Forall (fun p => 0 <= p) l -> weight l = zsum l.
Proof.
  induction 1 as [|p t Hp _ IH]; [reflexivity|]. cbn [weight zsum fold_right]. fold (zsum t). rewrite IH. unfold pw.
  destruct (Z.eqb_spec p (-1)); lia.
Qed.

Lemma last_max_from_lt l : forall i best bv, (best < i)%nat -> (last_max_from l i best bv < i + length l)%nat.
Proof.
  induction l as [|x t IH]; intros i best bv Hb; cbn [last_max_from length]; [lia|].
  destruct (bv <=? x); [specialize (IH (S i) i x ltac:(lia))|specialize (IH (S i) best bv ltac:(lia))]; lia.
Qed.
Lemma last_max_idx_lt l : l <> [] -> (last_max_idx l < length l)%nat.
Proof. destruct l as [|x t]; [congruence|]. intros _. unfold last_max_idx. pose proof (last_max_from_lt t 1 0 x ltac:(lia)). cbn [length]. lia. Qed.

Lemma first_min_spec l : forall i best j m, first_min_gt1_from l i best = Some (j, m) ->
  (best = Some (j, m)) \/ ((i <= j < i + length l)%nat /\ nth (j - i) l 0 = m /\ 1 < m).
Proof.
  induction l as [|x t IH]; intros i best j m H; cbn [first_min_gt1_from] in H; [left; exact H|].
  (* the search goes on with the old best, or with x, which is above 1 *)
  assert (Hb : exists b, first_min_gt1_from t (S i) b = Some (j, m) /\ (b = best \/ b = Some (i, x) /\ 1 < x)).
  { destruct (Z.ltb_spec 1 x); [|eauto]. destruct best as [[bi bv]|]; [destruct (x <? bv)|]; eauto. }
  destruct Hb as (b & Hb & Hor). cbn [length]. destruct (IH _ _ _ _ Hb) as [E|(A & B & C)].
  - destruct Hor as [->|(-> & Hx)]; [left; exact E|right]. injection E as <- <-. rewrite Nat.sub_diag. cbn [nth]. lia.
  - right. replace (j - i)%nat with (S (j - S i)) by lia. split; [lia|]. split; [exact B|exact C].
Qed.

Lemma last_max_from_ge l : forall i best bv r, last_max_from l i best bv = r ->
  (r = best /\ Forall (fun x => x < bv) l) \/
  (exists k, r = (i + k)%nat /\ (k < length l)%nat /\ bv <= nth k l 0 /\ Forall (fun x => x <= nth k l 0) l).
Proof.
  induction l as [|x t IH]; intros i best bv r H; cbn [last_max_from] in H.
  - left. split; [congruence|constructor].
  - destruct (Z.leb_spec bv x) as [Hx|Hx].
    + destruct (IH _ _ _ _ H) as [(E & F)|(k & E & Lk & G & F)].
      * right. exists 0%nat. cbn [nth length]. repeat split; try lia. constructor; [lia|]. eapply Forall_impl; [|exact F]. cbn. intros; lia.
      * right. exists (S k). cbn [nth length]. repeat split; try lia. constructor; [lia|exact F].
    + destruct (IH _ _ _ _ H) as [(E & F)|(k & E & Lk & G & F)].
      * left. split; [exact E|]. constructor; [lia|exact F].
      * right. exists (S k). cbn [nth length]. repeat split; try lia. constructor; [lia|exact F].
Qed.

Lemma last_max_is_max l : l <> [] -> Forall (fun x => x <= nth (last_max_idx l) l 0) l.
Proof.
  destruct l as [|x t]; [congruence|]. intros _. unfold last_max_idx.
  destruct (last_max_from_ge t 1 0 x _ eq_refl) as [(E & F)|(k & E & Lk & G & F)].
  - rewrite E. cbn [nth]. constructor; [lia|]. eapply Forall_impl; [|exact F]. cbn. intros; lia.
  - rewrite E. cbn [Nat.add nth]. constructor; [lia|exact F].
Qed.

Lemma zsum_pos_max l : 0 < zsum l -> l <> [] /\ 0 < nth (last_max_idx l) l 0.
Proof.
  intros Hs. assert (Hne : l <> []) by (intros ->; cbn in Hs; lia). split; [exact Hne|].
  destruct (Z.ltb_spec 0 (nth (last_max_idx l) l 0)) as [|Hle]; [assumption|].
  pose proof (zsum_nonpos l _ Hle (last_max_is_max l Hne)). lia.
Qed.

Lemma first_min_exists l : forall i best, Exists (fun x => 1 < x) l -> first_min_gt1_from l i best <> None.
Proof.
  assert (Keep : forall l0 i b, b <> None -> first_min_gt1_from l0 i b <> None).
  { induction l0 as [|x t IH]; intros i b Hb; cbn [first_min_gt1_from]; [exact Hb|].
    destruct (1 <? x); [|apply IH; exact Hb]. destruct b as [[bi bv]|]; [destruct (x <? bv); apply IH; discriminate|apply IH; discriminate]. }
  induction l as [|x t IH]; intros i best He; [inversion He|]. cbn [first_min_gt1_from].
  inversion He as [? ? Hx|? ? Ht]; subst.
  - destruct (Z.ltb_spec 1 x); [|lia]. destruct best as [[bi bv]|]; [destruct (x <? bv); apply Keep; discriminate|apply Keep; discriminate].
  - destruct (1 <? x); [destruct best as [[bi bv]|]; [destruct (x <? bv)|]|]; apply IH; exact Ht.
Qed.

Lemma first_idx_spec l : forall v i j, first_idx_of l v i = Some j -> (i <= j < i + length l)%nat /\ nth (j - i) l 0 = v.
Proof.
  induction l as [|x t IH]; intros v i j H; cbn [first_idx_of] in H; [discriminate|].
  destruct (Z.eqb_spec x v) as [E|E].
  - injection H as <-. cbn [length]. rewrite Nat.sub_diag. cbn. split; [lia|exact E].
  - destruct (IH _ _ _ H) as (A & B). cbn [length]. split; [lia|]. replace (j - i)%nat with (S (j - S i)) by lia. exact B.
Qed.

Lemma first_idx_exists l : forall v i, In v l -> first_idx_of l v i <> None.
Proof.
  induction l as [|x t IH]; intros v i Hin; [contradiction|]. cbn [first_idx_of].
  destruct (Z.eqb_spec x v); [discriminate|]. destruct Hin as [->|Hin]; [congruence|]. apply IH. exact Hin.
Qed.

Lemma min_fold_spec counts : forall m0, 0 <= m0 -> Forall (fun c => 0 <= c) counts ->
  let m := fold_left (fun m c => if (0 <? c) && ((c <? m) || (m =? 0)) then c else m) counts m0 in
  0 <= m /\ (m = 0 -> m0 = 0 /\ Forall (fun c => c = 0) counts) /\ (0 < m -> (m0 = 0 \/ m <= m0) /\ Forall (fun c => 0 < c -> m <= c) counts).
Proof.
  induction counts as [|c t IH]; intros m0 H0 Hc; cbn [fold_left].
  - split; [lia|]. split; [intros E; split; [exact E|constructor]|]. intros Hm. split; [right; lia|constructor].
  - inversion Hc as [|? ? Hc0 Hct]; subst.
    set (m1 := if (0 <? c) && ((c <? m0) || (m0 =? 0)) then c else m0).
    assert (Hm1 : 0 <= m1 /\ (m1 = 0 -> m0 = 0 /\ c = 0) /\ (0 < m1 -> (m0 = 0 \/ m1 <= m0) /\ (0 < c -> m1 <= c))).
    { unfold m1. destruct (Z.ltb_spec 0 c), (Z.ltb_spec c m0), (Z.eqb_spec m0 0); cbn [andb orb]; lia. }
    clearbody m1. destruct (IH m1 ltac:(lia) Hct) as (A & B & C). split; [exact A|]. split.
    + intros E. destruct (B E) as (E1 & F). split; [lia|constructor; [lia|exact F]].
    + intros Hm. destruct (C Hm) as (D & F). split; [lia|constructor; [lia|exact F]].
Qed.

Lemma Forall2_upd {P : Z -> Z -> Prop} (a l : list Z) : forall i v, Forall2 P a l -> (forall x, nth_error a i = Some x -> P x v) -> Forall2 P a (upd l i v).
Proof.
  intros i v H. revert i. induction H as [|x y a' l' Hxy H IH]; intros i Hv.
  - destruct i; constructor.
  - destruct i; cbn [upd]; constructor; auto.
Qed.

Definition keeps (c p : Z) : Prop := (c <= 0 -> p = 0) /\ (0 < c -> 1 <= p).

Lemma keeps_at counts probs i : Forall2 keeps counts probs -> keeps (nth i counts 0) (nth i probs 0).
Proof.
  intros Hk. revert i. induction Hk as [|c p a l K _ IH]; intros i; [destruct i; split; cbn; lia|].
  destruct i; cbn [nth]; [exact K|apply IH].
Qed.

(** a positive probability may be replaced by any other: its symbol occurs *)
Lemma keeps_nth counts probs i : Forall2 keeps counts probs -> 0 < nth i probs 0 ->
  forall v, 1 <= v -> Forall2 keeps counts (upd probs i v).
Proof.
  intros Hk Hp v Hv. apply Forall2_upd; [exact Hk|]. intros c Hc. split; [|lia]. intros Hc0.
  destruct (keeps_at counts probs i Hk) as (K0 & _). rewrite (nth_error_nth _ _ 0 Hc) in K0. lia.
Qed.

Lemma keeps_nonneg counts probs : Forall (fun c => 0 <= c) counts -> Forall2 keeps counts probs -> Forall (fun p => 0 <= p) probs.
Proof.
  intros Hc Hk. induction Hk as [|c p a l (K0 & K1) _ IH]; [constructor|]. inversion Hc; subst. constructor; [|apply IH; assumption].
  destruct (Z.ltb_spec 0 c); [specialize (K1 ltac:(lia)); lia|rewrite K0 by lia; lia].
Qed.

Lemma keeps_last counts probs : Forall2 keeps counts probs -> counts <> [] -> 0 < last counts 0 -> 1 <= nth (length probs - 1) probs 0.
Proof.
  intros Hk Hne Hl. rewrite last_is_nth in Hl by exact Hne. rewrite (Forall2_len _ _ _ Hk) in Hl.
  apply (keeps_at counts probs _ Hk). exact Hl.
Qed.

Lemma keeps_map cs : forall (f : Z -> Z), (forall c, In c cs -> keeps c (f c)) -> Forall2 keeps cs (map f cs).
Proof.
  induction cs as [|c t IH]; intros f Hf; cbn [map]; constructor; [apply Hf; left; reflexivity|].
  apply IH. intros c0 Hin. apply Hf. right. exact Hin.
Qed.

Lemma keeps_map2 cs ps (g : Z -> Z) : (forall p, (p = 0 -> g p = 0) /\ (1 <= p -> 1 <= g p)) ->
  Forall2 keeps cs ps -> Forall2 keeps cs (map g ps).
Proof.
  intros Hg Hk. induction Hk as [|c p a l (K0 & K1) _ IH]; [constructor|]. cbn [map]. constructor; [|exact IH].
  destruct (Hg p) as (G0 & G1). split; intros Hx; [apply G0, K0, Hx|apply G1, K1, Hx].
Qed.

Lemma all_le1_sum l : Forall (fun p => 0 <= p) l -> ~ Exists (fun x => 1 < x) l -> zsum l <= Z.of_nat (length l).
Proof.
  induction 1 as [|p t Hp _ IH]; intros Hn; [cbn; lia|]. cbn [zsum fold_right length]. fold (zsum t).
  assert (p <= 1) by (destruct (Z.ltb_spec 1 p); [exfalso; apply Hn; left; assumption|lia]).
  specialize (IH ltac:(intros He; apply Hn; right; exact He)). lia.
Qed.

(** the shrinking loop: total minus outstanding excess is invariant, occurring symbols keep a probability >= 1; it can
    only fail when nothing above 1 is left, that is when the target total is below the number of entries *)
Lemma shrink_spec fuel : forall counts probs diff, Forall (fun c => 0 <= c) counts -> Forall2 keeps counts probs ->
  0 <= diff <= Z.of_nat fuel ->
  match shrink fuel probs diff with
  | ROk out => Forall2 keeps counts out /\ zsum out = zsum probs - diff /\ length out = length probs
  | _ => zsum probs - diff < Z.of_nat (length probs)
  end.
Proof.
  induction fuel as [|f IH]; intros counts probs diff Hc Hk Hd; cbn [shrink];
    (destruct (Z.leb_spec diff 0) as [H0|H0]; [repeat split; [exact Hk|lia]|]); [lia|].
  destruct (first_min_gt1_from probs 0 None) as [[i m]|] eqn:Em.
  - destruct (first_min_spec _ _ _ _ _ Em) as [E|(A & B & C)]; [discriminate|]. rewrite Nat.sub_0_r in B.
    set (d := Z.min (m - 1) diff). assert (Hdec : 0 < d <= diff /\ 1 <= m - d) by (unfold d; lia).
    specialize (IH counts (upd probs i (m - d)) (diff - d) Hc ltac:(apply keeps_nth; [exact Hk|lia|lia]) ltac:(lia)).
    rewrite upd_length, zsum_upd, B in IH by lia.
    destruct (shrink f (upd probs i (m - d)) (diff - d)) as [out|e|e]; [destruct IH as (K & S & L); repeat split; [exact K|lia|exact L]|lia|lia].
  - destruct (Exists_dec (fun x => 1 < x) probs (fun x => Z_lt_dec 1 x)) as [He|Hne].
    + destruct (first_min_exists probs 0 None He Em).
    + pose proof (all_le1_sum probs (keeps_nonneg counts probs Hc Hk) Hne). lia.
Qed.

(** a copy of the last step of the model's [norm_counts] with [avoid = true] ([avoid_0_numbit] in the crate), written
    out as a function of its own; it is tied to the model only by conversion, where [norm_counts_spec] meets it in the
    unfolded body of [norm_counts].  What the largest probability holds above half of
    the table goes to the largest of the others. *)
Definition avoid_zero_bits (al : Z) (probs : list Z) : res (Z * list Z) :=
  let i := last_max_idx probs in
  let mx := nth i probs 0 in
  if 2 ^ (al - 1) <? mx then
    let redistribute := mx - 2 ^ (al - 1) in
    let probs' := upd probs i (mx - redistribute) in
    let mx' := mx - redistribute in
    let others := filter (fun x => negb (x =? mx')) probs' in
    match others with
    | [] => RPanic "called `Option::unwrap()` on a `None` value"
    | _ =>
        let second := nth (last_max_idx others) others 0 in
        match first_idx_of probs' second 0 with
        | None => RPanic "called `Option::unwrap()` on a `None` value"
        | Some j =>
            if mx' <? nth j probs' 0 + redistribute then RPanic "assertion failed: *second_max <= max"
            else ROk (al, upd probs' j (nth j probs' 0 + redistribute))
        end
    end
  else ROk (al, probs).

(** it never panics on at least two non-negative entries with total 2^al: the maximum being above half, it is the
    only entry that is, so after cutting it to half the others sum to less than half, and so does their maximum
    with the surplus added *)
Lemma avoid_zero_bits_spec al probs : 1 <= al -> (2 <= length probs)%nat -> Forall (fun p => 0 <= p) probs -> zsum probs = 2 ^ al ->
  exists out, avoid_zero_bits al probs = ROk (al, out) /\ length out = length probs /\ zsum out = 2 ^ al /\
    Forall (fun p => 0 <= p <= 2 ^ (al - 1)) out /\ (forall k, 1 <= nth k probs 0 -> 1 <= nth k out 0).
Proof.
  intros Hal Hlen Hnn Hs. unfold avoid_zero_bits. cbv zeta.
  assert (Hne : probs <> []) by (intros ->; cbn in Hlen; lia).
  pose proof (last_max_idx_lt probs Hne) as Hi. pose proof (last_max_is_max probs Hne) as Hmax.
  set (i := last_max_idx probs) in *. set (mx := nth i probs 0) in *.
  assert (H2 : 2 ^ al = 2 * 2 ^ (al - 1)) by (rewrite <- Z.pow_succ_r by lia; f_equal; lia).
  assert (Hp : 0 < 2 ^ (al - 1)) by (apply Z.pow_pos_nonneg; lia).
  set (h := 2 ^ (al - 1)) in *.
  destruct (Z.ltb_spec h mx) as [Hbig|Hsmall].
  2:{ exists probs. repeat split; [exact Hs| |auto]. rewrite Forall_forall in *. intros x Hx. specialize (Hnn x Hx). specialize (Hmax x Hx). cbv beta in Hmax. lia. }
  replace (mx - (mx - h)) with h by lia. set (r := mx - h).
  set (probs' := upd probs i h).
  assert (Lp : length probs' = length probs) by apply upd_length.
  assert (Hnn' : Forall (fun p => 0 <= p) probs') by (apply Forall_upd; [exact Hnn|lia]).
  assert (Hs' : zsum probs' = 2 * h - r) by (unfold probs'; rewrite zsum_upd by exact Hi; fold mx; unfold r; lia).
  pose proof (zsum_split_filter probs' h Hnn') as Hsplit.
  set (others := filter (fun x => negb (x =? h)) probs') in *.
  set (cnt := length (filter (fun x => x =? h) probs')) in *.
  assert (Hcnt : (1 <= cnt)%nat).
  { unfold cnt. assert (In h (filter (fun x => x =? h) probs')) as Hin.
    { apply filter_In. split; [|apply Z.eqb_refl]. unfold probs'. rewrite <- (nth_upd_eq probs 0 i h Hi) at 1. apply nth_In. rewrite upd_length. exact Hi. }
    destruct (filter (fun x => x =? h) probs'); [contradiction|cbn [length]; lia]. }
  assert (Hon : Forall (fun p => 0 <= p) others) by (unfold others; apply Forall_forall; intros x Hx; apply filter_In in Hx as [Hx _]; rewrite Forall_forall in Hnn'; apply Hnn'; exact Hx).
  pose proof (zsum_nonneg others Hon) as Hos.
  assert (Hcnt1 : cnt = 1%nat).
  { destruct cnt as [|[|c]]; [lia|reflexivity|exfalso]. rewrite !Nat2Z.inj_succ in Hsplit. unfold r in Hs'. nia. }
  rewrite Hcnt1 in Hsplit. change (Z.of_nat 1) with 1 in Hsplit.
  assert (Hoth : forall x, In x others -> 0 <= x <= h - r).
  { intros x Hx. pose proof (zsum_ge_elem others x Hon Hx). rewrite Forall_forall in Hon. specialize (Hon x Hx). cbv beta in Hon. lia. }
  assert (Hall' : Forall (fun p => 0 <= p <= h) probs').
  { apply Forall_forall. intros x Hx. destruct (Z.eqb_spec x h) as [->|Hn]; [lia|].
    assert (In x others) as Hxo by (apply filter_In; split; [exact Hx|destruct (Z.eqb_spec x h); [contradiction|reflexivity]]).
    specialize (Hoth x Hxo). lia. }
  destruct others as [|o os] eqn:Eo.
  { exfalso. (* everything equals h: then there is exactly one entry *)
    assert (length probs' = cnt).
    { unfold cnt. clear - Eo. induction probs' as [|x t IH]; [reflexivity|]. cbn [filter] in *. destruct (Z.eqb_spec x h); cbn [negb] in Eo; [cbn [length]; rewrite IH by exact Eo; reflexivity|discriminate]. }
    lia. }
  set (second := nth (last_max_idx (o :: os)) (o :: os) 0).
  assert (Hsec_in : In second (o :: os)) by (apply nth_In; apply last_max_idx_lt; discriminate).
  pose proof (Hoth second Hsec_in) as Hsec.
  rewrite <- Eo in Hsec_in. apply filter_In in Hsec_in as (Hsec_in' & Hsec_ne).
  destruct (first_idx_of probs' second 0) as [j|] eqn:Ej; [|exfalso; exact (first_idx_exists _ _ _ Hsec_in' Ej)].
  destruct (first_idx_spec _ _ _ _ Ej) as (Aj & Bj). rewrite Nat.sub_0_r in Bj. rewrite Bj.
  destruct (Z.ltb_spec h (second + r)) as [Hbad|_]; [lia|]. eexists. split; [reflexivity|].
  assert (Hji : j <> i).
  { intros ->. unfold probs' in Bj. rewrite nth_upd_eq in Bj by exact Hi. rewrite <- Bj, Z.eqb_refl in Hsec_ne. discriminate. }
  split; [rewrite upd_length; exact Lp|].
  split; [rewrite zsum_upd, Bj by lia; lia|].
  split; [apply Forall_upd; [exact Hall'|unfold r in *; lia]|].
  intros k Hk. destruct (Nat.eq_dec k j) as [->|Hkj].
  - rewrite nth_upd_eq by lia. unfold r. lia.
  - rewrite nth_upd_neq by congruence. unfold probs'. destruct (Nat.eq_dec k i) as [->|Hki].
    + rewrite nth_upd_eq by exact Hi. lia.
    + rewrite nth_upd_neq by congruence. exact Hk.
Qed.

Theorem norm_counts_spec counts max_log :
  5 <= max_log -> Forall (fun c => 0 <= c) counts -> 0 < last counts 0 -> (2 <= length counts)%nat ->
  (exists al probs, norm_counts counts max_log true = ROk (al, probs) /\ 5 <= al <= max_log /\ length probs = length counts /\
     zsum probs = 2 ^ al /\ Forall (fun p => 0 <= p <= 2 ^ (al - 1)) probs /\ (forall i, 0 < nth i counts 0 -> 1 <= nth i probs 0)) \/
  (2 ^ max_log < Z.of_nat (length counts) /\ forall r, norm_counts counts max_log true <> ROk r).
Proof.
  intros Hml Hc Hlast Hlen. unfold norm_counts.
  replace (Nat.max (length counts) 2) with (length counts) by lia. rewrite Nat.sub_diag. cbn [zeros]. rewrite app_nil_r.
  set (mc := fold_left (fun m c => if (0 <? c) && ((c <? m) || (m =? 0)) then c else m) counts 0).
  destruct (min_fold_spec counts 0 ltac:(lia) Hc) as (M0 & M1 & M2). fold mc in M0, M1, M2.
  assert (Hcne : counts <> []) by (intros ->; cbn in Hlen; lia).
  destruct (Z.eqb_spec mc 0) as [E0|E0].
  { exfalso. destruct (M1 E0) as (_ & Hall). rewrite last_is_nth in Hlast by exact Hcne.
    rewrite Forall_forall in Hall. specialize (Hall (nth (length counts - 1) counts 0) ltac:(apply nth_In; lia)). lia. }
  destruct (M2 ltac:(lia)) as (_ & Mle).
  set (p1 := map (fun p => if 0 <? p then p - (mc - 1) else p) counts).
  assert (K1 : Forall2 keeps counts p1).
  { apply keeps_map. intros c Hin. rewrite Forall_forall in Mle, Hc. specialize (Mle c Hin). specialize (Hc c Hin). cbv beta in Hc.
    unfold keeps. destruct (Z.ltb_spec 0 c); split; intros; lia. }
  set (p2 := if (0 <? zmaxl p1) && (Z.of_nat (length counts) <? zmaxl p1)
             then map (fun p => if 0 <? p then Z.max (p / (zmaxl p1 / Z.of_nat (length counts))) 1 else p) p1 else p1).
  assert (K2 : Forall2 keeps counts p2).
  { unfold p2. destruct ((0 <? zmaxl p1) && (Z.of_nat (length counts) <? zmaxl p1)); [|exact K1].
    apply keeps_map2; [|exact K1]. intros p. split; intros Hp.
    - subst p. reflexivity.
    - destruct (Z.ltb_spec 0 p); lia. }
  assert (N2 : Forall (fun p => 0 <= p) p2) by exact (keeps_nonneg counts p2 Hc K2).
  assert (L2 : length p2 = length counts) by (symmetry; eapply Forall2_len; exact K2).
  assert (Hs1 : 1 <= zsum p2) by (apply zsum_ge1; [exact N2|eexists; exact (keeps_last counts p2 K2 Hcne Hlast)]).
  destruct (Z.leb_spec (zsum p2) 0) as [Hs0|Hs0]; [lia|].
  set (al0 := Z.min (Z.max (Z.log2 (zsum p2) + 1) 5) max_log).
  assert (Hal : 5 <= al0 <= max_log) by (unfold al0; lia).
  assert (P0 : 0 < 2 ^ al0) by (apply Z.pow_pos_nonneg; lia).
  assert (Fin : forall p3, Forall2 keeps counts p3 -> zsum p3 = 2 ^ al0 -> length p3 = length counts ->
            exists al probs, avoid_zero_bits al0 p3 = ROk (al, probs) /\ 5 <= al <= max_log /\ length probs = length counts /\
              zsum probs = 2 ^ al /\ Forall (fun p => 0 <= p <= 2 ^ (al - 1)) probs /\ (forall i, 0 < nth i counts 0 -> 1 <= nth i probs 0)).
  { intros p3 K3 S3 L3.
    destruct (avoid_zero_bits_spec al0 p3 ltac:(lia) ltac:(lia) (keeps_nonneg counts p3 Hc K3) S3) as (out & Eo & L4 & S4 & B4 & Keep).
    exists al0, out. split; [exact Eo|]. split; [exact Hal|]. split; [congruence|]. split; [exact S4|]. split; [exact B4|].
    intros i Hi. apply Keep, (keeps_at counts p3 i K3), Hi. }
  (* the two ways of reaching the total *)
  destruct (Z.ltb_spec (zsum p2) (2 ^ al0)) as [Hlt|Hge]; cbn [rbind].
  - left. destruct (zsum_pos_max p2 Hs0) as (Hne & Hmax). pose proof (last_max_idx_lt p2 Hne) as Hi.
    apply Fin; [apply keeps_nth; [exact K2|exact Hmax|lia]|rewrite zsum_upd by exact Hi; lia|rewrite upd_length; exact L2].
  - pose proof (shrink_spec (Z.to_nat (zsum p2 - 2 ^ al0)) counts p2 (zsum p2 - 2 ^ al0) Hc K2 ltac:(lia)) as Hsh.
    destruct (shrink _ p2 _) as [p3|e|e]; cbn [rbind].
    1: left; destruct Hsh as (K3 & S3 & L3); apply Fin; [exact K3|lia|congruence].
    (* the excess branch is only reached with the largest table: it failed for want of room *)
    all: right; split; [|intros r; discriminate];
         assert (Z.log2 (zsum p2) < al0 \/ al0 = max_log) as [Hl|Eal] by (unfold al0; lia);
         [apply Z.log2_lt_pow2 in Hl; lia|rewrite <- Eal; lia].
Qed.

Theorem norm_counts_normalised counts max_log al probs :
  5 <= max_log -> Forall (fun c => 0 <= c) counts -> 0 < last counts 0 -> (2 <= length counts)%nat ->
  norm_counts counts max_log true = ROk (al, probs) ->
  dist_ok al probs /\ 5 <= al <= max_log /\ length probs = length counts /\ Forall (fun p => 0 <= p) probs /\
  zsum probs = 2 ^ al /\ (forall i, 0 < nth i counts 0 -> 1 <= nth i probs 0).
Proof.
  intros Hml Hc Hlast Hlen H.
  destruct (norm_counts_spec counts max_log Hml Hc Hlast Hlen) as [(al' & out & E & Hal & L & S & B & Keep)|(_ & Hno)]; [|destruct (Hno _ H)].
  rewrite E in H. injection H as -> ->.
  assert (N : Forall (fun p => 0 <= p) probs) by (eapply Forall_impl; [|exact B]; cbv beta; intros; lia).
  assert (Hcne : counts <> []) by (intros ->; cbn in Hlen; lia).
  repeat split; try assumption; try lia.
  - eapply Forall_impl; [|exact N]. cbv beta. intros; lia.
  - rewrite weight_is_sum by exact N. exact S.
  - rewrite last_is_nth in Hlast by exact Hcne. specialize (Keep _ Hlast).
    rewrite last_is_nth by (intros ->; cbn in L; lia). rewrite L, (nth_indep _ 1 0) by lia. lia.
Qed.

(** with C12_AvoidBits.v: every state of the table built from the output carries a bit *)
Theorem norm_counts_half_bounded counts max_log al probs :
  5 <= max_log -> Forall (fun c => 0 <= c) counts -> 0 < last counts 0 -> (2 <= length counts)%nat ->
  norm_counts counts max_log true = ROk (al, probs) ->
  Forall (fun p => p <= 2 ^ (al - 1)) probs.
Proof.
  intros Hml Hc Hlast Hlen H.
  destruct (norm_counts_spec counts max_log Hml Hc Hlast Hlen) as [(al' & out & E & _ & _ & _ & B & _)|(_ & Hno)]; [|destruct (Hno _ H)].
  rewrite E in H. injection H as -> ->. eapply Forall_impl; [|exact B]. cbv beta. intros; lia.
Qed.
