(** C13 / C02: the Huffman-coded literals section round trip.  For every literal buffer the compressor Huffman-codes
    (1025 .. 128 Ki literals), every code/table pair in which the table resolves the code words of the literals, and
    any table description the decoder turns into that table: header, description, jump table and the four streams are
    read back by [decode_literals] as exactly the literals. *)
Require Import Zrs.lib.RsPrelude Zrs.proofs.ModelFacts Zrs.lib.ListFacts Zrs.model.Headers Zrs.model.BitIO Zrs.model.FseDec Zrs.model.HufDec Zrs.model.BlockDec.
Require Import Zrs.model.LitEnc.
Require Import Zrs.proofs.C12_Stream Zrs.proofs.C13_Stream Zrs.proofs.C03_Literals.
Open Scope Z_scope.

Lemma le_bytes_length n : forall v, length (le_bytes n v) = n.
Proof. induction n as [|n IH]; intros v; cbn [le_bytes length]; [|rewrite IH]; reflexivity. Qed.

Lemma need_spec_range r : 1 <= need_spec r <= 5.
Proof. unfold need_spec. cbv zeta. destruct (_ <? _); destruct (_ || _); try destruct (_ =? _); lia. Qed.

(** The header is a little-endian word [V] of [n] = 1..5 bytes: two bits of type, two bits of size format (which with
    the type fixes [n]), then the regenerated size and, for the compressed types, the compressed size.  In a compressed
    header the two sizes share the remaining [8 n - 4] bits equally; a one-byte raw/RLE header has a one-bit size
    format, so its size starts at bit 3. *)
Definition header_fields (n : nat) (V : Z) : Z * Z * Z * option Z * option Z :=
  if V mod 4 <? 2 then (Z.of_nat n, V mod 4, V / (if (n =? 1)%nat then 8 else 16), None, None)
  else let k := 4 * Z.of_nat n - 2 in
       (Z.of_nat n, V mod 4, (V / 16) mod 2 ^ k, Some (V / 2 ^ (k + 4)), Some (if (V / 4) mod 4 =? 0 then 1 else 4)).

Lemma lit_header_parse_word n V rest : 0 <= V < 256 ^ Z.of_nat n -> need_spec V = Z.of_nat n ->
  lit_header_parse (le_bytes n V ++ rest) = ROk (header_fields n V).
Proof.
  intros HV Hn.
  assert (B0 : 0 <= V mod 256 < 256) by (apply Z.mod_pos_bound; lia).
  assert (Ety : (V mod 256) mod 4 = V mod 4) by lia.
  assert (Esf : (V mod 256 / 4) mod 4 = (V / 4) mod 4) by lia.
  assert (En : need_spec (V mod 256) = need_spec V) by (unfold need_spec; rewrite Ety, Esf; reflexivity).
  destruct n as [|n]; [pose proof (need_spec_range V); lia|].
  cbn [le_bytes app]. unfold lit_header_parse. destruct (first_byte_facts _ B0) as (-> & ->). cbn [rbind]. rewrite En, Hn. clear En.
  cbn [length]. rewrite app_length, le_bytes_length.
  assert (Z.of_nat (S (n + length rest)) <? Z.of_nat (S n) = false) as -> by lia.
  unfold need_spec in Hn. cbv zeta in Hn. rewrite Ety, Esf. unfold header_fields.
  assert (Hty : 0 <= V mod 4 < 4) by (apply Z.mod_pos_bound; lia).
  destruct (Z.ltb_spec (V mod 4) 2) as [T|T].
  - assert ((V mod 4 =? 1) || (V mod 4 =? 0) = true) as -> by lia.
    destruct (_ || _).
    + assert (n = 0%nat) by (clear - Hn; lia). subst n. cbn [Nat.eqb]. do 4 f_equal. change (Z.of_nat 1) with 1 in HV. clear - HV. lia.
    + destruct (_ =? 1).
      * assert (n = 1%nat) by (clear - Hn; lia). subst n. cbn [Nat.eqb le_bytes app]. unfold znth, Z.to_nat, Pos.to_nat. cbn [Pos.iter_op Nat.add nth]. do 4 f_equal. change (Z.of_nat 2) with 2 in HV. clear - HV. lia.
      * assert (n = 2%nat) by (clear - Hn; lia). subst n. cbn [Nat.eqb le_bytes app]. unfold znth, Z.to_nat, Pos.to_nat. cbn [Pos.iter_op Nat.add nth]. do 4 f_equal. change (Z.of_nat 3) with 3 in HV. clear - HV. lia.
  - assert ((V mod 4 =? 1) || (V mod 4 =? 0) = false) as -> by lia.
    destruct (_ || _).
    + assert (n = 2%nat) by (clear - Hn; lia). subst n. cbn [le_bytes app]. unfold znth, Z.to_nat, Pos.to_nat. cbn [Pos.iter_op Nat.add nth]. change (Z.of_nat 3) with 3 in *. cbv zeta. change (4 * 3 - 2) with 10.
      clear - HV. do 3 f_equal; [f_equal; lia|f_equal; lia].
    + destruct (_ =? 2).
      * assert (n = 3%nat) by (clear - Hn; lia). subst n. cbn [le_bytes app]. unfold znth, Z.to_nat, Pos.to_nat. cbn [Pos.iter_op Nat.add nth]. change (Z.of_nat 4) with 4 in *. cbv zeta. change (4 * 4 - 2) with 14.
        clear - HV. do 3 f_equal; [f_equal; lia|f_equal; lia].
      * assert (n = 4%nat) by (clear - Hn; lia). subst n. cbn [le_bytes app]. unfold znth, Z.to_nat, Pos.to_nat. cbn [Pos.iter_op Nat.add nth]. change (Z.of_nat 5) with 5 in *. cbv zeta. change (4 * 5 - 2) with 18.
        clear - HV. do 3 f_equal; [f_equal; lia|f_equal; lia].
Qed.

(** the compressed headers written field by field: size formats 0 and 1 take 3 bytes, 2 takes 4, 3 takes 5 *)
Lemma compressed_header_parse n sf ty regen comp rest :
  (ty = 2 \/ ty = 3) -> (sf = 0 \/ sf = 1) /\ n = 3%nat \/ sf = 2 /\ n = 4%nat \/ sf = 3 /\ n = 5%nat ->
  let k := 4 * Z.of_nat n - 2 in
  0 <= regen < 2 ^ k -> 0 <= comp < 2 ^ k ->
  lit_header_parse (le_bytes n (ty + 4 * sf + 16 * regen + 2 ^ (k + 4) * comp) ++ rest)
  = ROk (Z.of_nat n, ty, regen, Some comp, Some (if sf =? 0 then 1 else 4)).
Proof.
  intros Hty Hsf k. set (V := ty + 4 * sf + 16 * regen + 2 ^ (k + 4) * comp). intros Hr Hc.
  assert (HV : 0 <= V < 256 ^ Z.of_nat n /\ V mod 4 = ty /\ (V / 4) mod 4 = sf /\ (V / 16) mod 2 ^ k = regen /\ V / 2 ^ (k + 4) = comp).
  { destruct Hsf as [(Hsf & ->)|[(-> & ->)|(-> & ->)]]; vm_compute in k; subst k V; lia. }
  clearbody V. destruct HV as (HV & E1 & E2 & E3 & E4). assert (T : ty <? 2 = false) by (clear - Hty; lia).
  rewrite lit_header_parse_word; [unfold header_fields; fold k; rewrite E1, E2, E3, E4, T; reflexivity|exact HV|].
  unfold need_spec. cbv zeta. rewrite E1, E2, T. destruct Hsf as [([-> | ->] & ->)|[(-> & ->)|(-> & ->)]]; reflexivity.
Qed.

Lemma huf_header_parse_small ty regen comp rest : (ty = 2 \/ ty = 3) -> 0 <= regen < 16384 -> 0 <= comp < 16384 ->
  lit_header_parse (huf_lit_header ty regen comp ++ rest) = ROk (4, ty, regen, Some comp, Some 4).
Proof.
  intros Hty Hr Hc. unfold huf_lit_header, lit_header_value. destruct (Z.ltb_spec regen 16384) as [_|H]; [|lia].
  apply (compressed_header_parse 4 2 ty regen comp rest Hty); [tauto|exact Hr|exact Hc].
Qed.

Lemma huf_header_parse_large ty regen comp rest : (ty = 2 \/ ty = 3) -> 16384 <= regen < 262144 -> 0 <= comp < 262144 ->
  lit_header_parse (huf_lit_header ty regen comp ++ rest) = ROk (5, ty, regen, Some comp, Some 4).
Proof.
  intros Hty Hr Hc. unfold huf_lit_header, lit_header_value. destruct (Z.ltb_spec regen 16384) as [H|_]; [lia|].
  apply (compressed_header_parse 5 3 ty regen comp rest Hty); [tauto|change (2 ^ (4 * Z.of_nat 5 - 2)) with 262144; lia|exact Hc].
Qed.

Lemma huf_header_length ty regen comp : zlen (huf_lit_header ty regen comp) = if regen <? 16384 then 4 else 5.
Proof. unfold huf_lit_header, lit_header_value. destruct (regen <? 16384); reflexivity. Qed.

Lemma split4_spec lits : (16 <= length lits)%nat ->
  let '(a, b, c, d) := split4 lits in
  lits = a ++ b ++ c ++ d /\ a <> [] /\ b <> [] /\ c <> [] /\ d <> [].
Proof.
  intros Hn. unfold split4. set (s := quarter (length lits)).
  assert (Hs : (4 <= s /\ 3 * s < length lits)%nat) by (unfold s, quarter; lia).
  assert (E : lits = firstn s lits ++ firstn s (skipn s lits) ++ firstn s (skipn (2 * s) lits) ++ skipn (3 * s) lits).
  { rewrite <- (firstn_skipn s lits) at 1. f_equal.
    rewrite <- (firstn_skipn s (skipn s lits)) at 1. f_equal.
    rewrite skipn_add. replace (s + s)%nat with (2 * s)%nat by lia.
    rewrite <- (firstn_skipn s (skipn (2 * s) lits)) at 1. f_equal.
    rewrite skipn_add. f_equal. lia. }
  split; [exact E|].
  assert (L : forall k, (k + s <= length lits)%nat -> length (firstn s (skipn k lits)) = s)
    by (intros k Hk; rewrite firstn_length, skipn_length; lia).
  repeat split; intros H0; apply (f_equal (@length Z)) in H0; cbn [length] in H0.
  - rewrite firstn_length in H0. lia.
  - rewrite L in H0; lia.
  - rewrite L in H0; lia.
  - rewrite skipn_length in H0. lia.
Qed.

Lemma le16_read n rest : 0 <= n < 65536 -> nth_z (le16 n ++ rest) 0 + nth_z (le16 n ++ rest) 1 * 256 = n.
Proof. intros H. unfold le16, nth_z. cbn [app]. change (Z.to_nat 0) with 0%nat. change (Z.to_nat 1) with 1%nat. cbn [nth]. lia. Qed.

Lemma description_then_treeless desc payload ht t regen ns :
  huf_build_decoder ht (desc ++ payload) = ROk (t, zlen desc) -> ht_max_bits t <> 0 ->
  decode_literals {| ls_type := 2; ls_regen := regen; ls_comp := Some (zlen (desc ++ payload)); ls_streams := Some ns |} ht (desc ++ payload)
  = let* (t', lits, used) := decode_literals {| ls_type := 3; ls_regen := regen; ls_comp := Some (zlen payload); ls_streams := Some ns |} t payload in
    ROk (t', lits, zlen desc + used).
Proof.
  intros Hb HM. unfold decode_literals. cbn [ls_type ls_regen ls_comp ls_streams Z.eqb Pos.eqb].
  rewrite !Z.ltb_irrefl, !(take_all _ _ eq_refl), Hb. apply Z.eqb_neq in HM. rewrite HM. cbn [rbind].
  rewrite short_app. destruct (Z.ltb_spec (zlen payload) 0) as [H|_]; [pose proof (zlen_nonneg payload); lia|].
  rewrite drop_app. change (drop_z 0 payload) with payload. rewrite <- !Z.add_assoc, !Z.add_0_l.
  destruct (ns =? 4).
  - destruct (zlen payload <? 6); [reflexivity|]. cbv zeta. destruct (zlen _ <? _); [reflexivity|].
    do 4 (destruct (huf_decode_stream t _ _ true) as [?o|e|e]; cbn [rbind]; [|reflexivity..]).
    destruct (negb _); reflexivity.
  - destruct (ns =? 1); [|reflexivity]. destruct (huf_decode_stream t _ _ false) as [?o|e|e]; cbn [rbind]; [|reflexivity..].
    destruct (negb _); reflexivity.
Qed.

Lemma literals_behind_description ty desc payload ht t regen ns lits :
  (ty = 2 /\ huf_build_decoder ht (desc ++ payload) = ROk (t, zlen desc)) \/ (ty = 3 /\ desc = [] /\ ht = t) -> ht_max_bits t <> 0 ->
  decode_literals {| ls_type := 3; ls_regen := regen; ls_comp := Some (zlen payload); ls_streams := Some ns |} t payload
    = ROk (t, lits, zlen payload) ->
  decode_literals {| ls_type := ty; ls_regen := regen; ls_comp := Some (zlen (desc ++ payload)); ls_streams := Some ns |} ht (desc ++ payload)
    = ROk (t, lits, zlen (desc ++ payload)).
Proof.
  intros [(-> & Hb)|(-> & -> & ->)] HM H; [|exact H].
  rewrite (description_then_treeless _ _ _ _ _ _ Hb HM), H, zlen_app. reflexivity.
Qed.

Lemma le16_val z : z mod 256 + z / 256 * 256 = z.
Proof. lia. Qed.
Lemma le16_sum x z : x + z mod 256 + z / 256 * 256 = x + z.
Proof. lia. Qed.

Lemma streams_split (s1 s2 s3 s4 : list Z) : let src := s1 ++ s2 ++ s3 ++ s4 in
  take_z (zlen s1) src = s1 /\ take_z (zlen s1 + zlen s2 - zlen s1) (drop_z (zlen s1) src) = s2 /\
  take_z (zlen s1 + zlen s2 + zlen s3 - (zlen s1 + zlen s2)) (drop_z (zlen s1 + zlen s2) src) = s3 /\
  drop_z (zlen s1 + zlen s2 + zlen s3) src = s4.
Proof.
  cbv zeta. rewrite !Z.add_simpl_l, drop_app, !take_app.
  rewrite <- !zlen_app, (app_assoc s1 s2), drop_app, take_app, (app_assoc (s1 ++ s2)), drop_app. auto.
Qed.

Section Four.
  Variable t : huf_table.
  Variable Mn : nat.
  Hypothesis HM : ht_max_bits t = Z.of_nat Mn.
  Hypothesis HM1 : (1 <= Mn)%nat.
  Hypothesis Hlen : ht_len t = 2 ^ Z.of_nat Mn.
  Variable code : Z -> hcode.
  Variables a b c d : list Z.
  Hypothesis Hne : a <> [] /\ b <> [] /\ c <> [] /\ d <> [].
  Hypothesis Hok : Forall (code_ok Mn code) (a ++ b ++ c ++ d).
  Hypothesis Hres : Forall (resolves t Mn code) (a ++ b ++ c ++ d).
  Hypothesis Hsizes : zlen (hstream code a) < 65536 /\ zlen (hstream code b) < 65536 /\ zlen (hstream code c) < 65536.

  Definition four_bytes : list Z :=
    le16 (zlen (hstream code a)) ++ le16 (zlen (hstream code b)) ++ le16 (zlen (hstream code c)) ++
    hstream code a ++ hstream code b ++ hstream code c ++ hstream code d.

  Lemma four_streams_decode :
    decode_literals {| ls_type := 3; ls_regen := zlen (a ++ b ++ c ++ d); ls_comp := Some (zlen four_bytes); ls_streams := Some 4 |} t four_bytes
    = ROk (t, a ++ b ++ c ++ d, zlen four_bytes).
  Proof using HM HM1 Hlen Hne Hok Hres.
    destruct Hne as (Na & Nb & Nc & Nd).
    apply Forall_app in Hok as (Oa & Hok1). apply Forall_app in Hok1 as (Ob & Hok2). apply Forall_app in Hok2 as (Oc & Od).
    apply Forall_app in Hres as (Ra & Hr1). apply Forall_app in Hr1 as (Rb & Hr2). apply Forall_app in Hr2 as (Rc & Rd).
    unfold decode_literals. cbn [ls_type ls_regen ls_comp ls_streams Z.eqb Pos.eqb].
    rewrite Z.ltb_irrefl, (take_all _ _ eq_refl), HM. destruct (Z.eqb_spec (Z.of_nat Mn) 0) as [H|_]; [lia|]. cbn [rbind].
    pose proof (zlen_nonneg four_bytes) as P0. destruct (Z.ltb_spec (zlen four_bytes) 0) as [H|_]; [lia|]. clear P0.
    change (drop_z 0 four_bytes) with four_bytes.
    destruct (zlen four_bytes <? 6) eqn:H; [apply Z.ltb_lt in H; unfold four_bytes, le16, zlen in H; cbn [app length] in H; lia|clear H].
    remember (zlen four_bytes) as total eqn:Etot. unfold four_bytes, le16. cbn [app].
    set (body := hstream code a ++ hstream code b ++ hstream code c ++ hstream code d).
    unfold nth_z, Z.to_nat, Pos.to_nat. cbn [Pos.iter_op Nat.add nth]. rewrite le16_val, !le16_sum.
    change (drop_z 6 _) with body.
    destruct (zlen body <? _) eqn:H; [apply Z.ltb_lt in H; unfold body in H; rewrite !zlen_app in H; pose proof (zlen_nonneg (hstream code d)); lia|clear H].
    subst body. destruct (streams_split (hstream code a) (hstream code b) (hstream code c) (hstream code d)) as (-> & -> & -> & ->).
    change (hstream code) with (huf_stream_bytes code).
    do 4 (rewrite (huffman_stream_roundtrip t Mn HM HM1 Hlen code) by assumption; cbn [rbind]).
    rewrite app_nil_r, <- !rev_app_distr, <- !app_assoc. unfold zlen at 1. rewrite rev_length. fold (zlen (a ++ b ++ c ++ d)).
    rewrite Z.eqb_refl. cbn [negb]. unfold rev'. rewrite <- rev_alt, rev_involutive. do 2 f_equal.
    rewrite Etot. change (huf_stream_bytes code) with (hstream code). unfold four_bytes, le16, zlen. cbn [app length]. lia.
  Qed.

  (** [Hsizes] says that the jump table is made of bytes; the decoder adds up the two bytes of a size whatever they are. *)
  Lemma huffman_payload_decodes ty desc ht :
    (ty = 2 /\ huf_build_decoder ht (desc ++ four_bytes) = ROk (t, zlen desc)) \/ (ty = 3 /\ desc = [] /\ ht = t) ->
    decode_literals {| ls_type := ty; ls_regen := zlen (a ++ b ++ c ++ d); ls_comp := Some (zlen (desc ++ four_bytes)); ls_streams := Some 4 |}
                    ht (desc ++ four_bytes) = ROk (t, a ++ b ++ c ++ d, zlen (desc ++ four_bytes)).
  Proof using HM HM1 Hlen Hne Hok Hres Hsizes.
    intros Hty. apply (literals_behind_description _ _ _ _ _ _ _ _ Hty); [lia|exact four_streams_decode].
  Qed.
End Four.

Lemma code_ok_b_sound mn code s : code_ok_b mn code s = true -> code_ok mn code s.
Proof.
  unfold code_ok_b, code_ok. intros H. apply andb_prop in H as [H H4]. apply andb_prop in H as [H H3]. apply andb_prop in H as [H1 H2].
  apply Nat.leb_le in H1. apply Nat.leb_le in H2. split; [lia|lia].
Qed.

Lemma resolves_b_sound t mn code s : code_ok mn code s -> resolves_b t mn code s = true -> resolves t mn code s.
Proof.
  intros (Hl & Hc) H. unfold resolves. intros w Lw Hw. unfold resolves_b in H. rewrite forallb_forall in H.
  set (n := snd (code s)) in *.
  assert (Ew : w = cw code s ++ skipn n w) by (rewrite <- Hw; symmetry; apply firstn_skipn).
  assert (Lc : length (cw code s) = n) by apply cw_length.
  assert (Ls : length (skipn n w) = (mn - n)%nat) by (rewrite skipn_length; lia).
  assert (Vc : bits_val_msb (cw code s) = fst (code s)).
  { unfold cw. rewrite bits_val_msb_rev. apply val_of_byte_bits. exact Hc. }
  pose proof (msb_bound (skipn n w)) as Bk. rewrite Ls in Bk.
  assert (Ev : bits_val_msb w = fst (code s) * 2 ^ Z.of_nat (mn - n) + bits_val_msb (skipn n w)).
  { rewrite Ew at 1. rewrite msb_app, Ls, Vc. reflexivity. }
  specialize (H (Z.to_nat (bits_val_msb (skipn n w)))).
  rewrite Z2Nat.id in H by lia. rewrite <- Ev in H.
  assert (Hin : In (Z.to_nat (bits_val_msb (skipn n w))) (seq 0 (Z.to_nat (2 ^ Z.of_nat (mn - n))))) by (apply in_seq; lia).
  specialize (H Hin). apply andb_prop in H as [E1 E2].
  destruct (nth_h (ht_decode t) (bits_val_msb w)) as [sy bi]. cbn [h_sym h_bits] in *. f_equal; lia.
Qed.

Lemma table_side_b_sound t mn : table_side_b t mn = true ->
  ht_max_bits t = Z.of_nat mn /\ (1 <= mn)%nat /\ ht_len t = 2 ^ Z.of_nat mn.
Proof.
  unfold table_side_b. intros H. apply andb_prop in H as [H H3]. apply andb_prop in H as [H1 H2].
  apply Nat.leb_le in H2. repeat split; lia.
Qed.
