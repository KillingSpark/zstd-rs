(** C03: building the Huffman decoding table from a weight list never panics -- for EVERY list of non-negative weights
    the construction either refuses the list (weight too big, no weights, leftover not a power of two, too deep) or
    returns a table -- and every table it returns is complete: each of its 2^max_bits entries carries a code length
    between 1 and max_bits, so that decoding a stream with it can neither index out of the table nor stand still.
    Both are read off the block structure of the table (C13_Canonical). *)
Require Import Zrs.lib.RsPrelude Zrs.lib.ResFacts Zrs.model.HufDec.
Require Import Zrs.proofs.C13_Canonical.
Open Scope Z_scope.

Theorem build_table_from_weights_never_panics ws : Forall (fun w => 0 <= w) ws -> no_panic (build_table_from_weights ws).
Proof.
  intros Hnn. destruct (accepts ws) eqn:Ha.
  - destruct (accepted_table_blocks ws Hnn Ha) as (_ & _ & _ & _ & dec & ranks & idxs & placed & -> & _). exact I.
  - destruct (build_table_refuses ws Ha) as (e & ->). exact I.
Qed.

Theorem built_huffman_table_complete ws dec0 M0 bits0 ranks0 idxs0 : Forall (fun w => 0 <= w) ws ->
  build_table_from_weights ws = ROk (dec0, M0, bits0, ranks0, idxs0) ->
  Z.of_nat (length dec0) = 2 ^ M0 /\ 1 <= M0 <= MAX_MAX_NUM_BITS /\ forall i, 0 <= i < 2 ^ M0 -> 1 <= h_bits (nth_h dec0 i) <= M0.
Proof.
  intros Hnn Hb. destruct (build_table_inv _ _ _ _ _ _ Hnn Hb) as (Ha & EM & _ & HM & _).
  destruct (accepted_table_blocks ws Hnn Ha) as (_ & _ & _ & _ & dec & ranks & idxs & placed & E & Ld & _ & _ & Hblk & Hcover & _).
  rewrite <- EM in *. rewrite Hb in E. injection E as <- _ _ _.
  split; [exact Ld|]. split; [exact HM|]. intros i Hi.
  destruct (Hcover i Hi) as (s & base & n & Hin & Hr). destruct (Hblk s base n Hin) as (Hn & _ & _ & _ & B6 & _).
  rewrite (B6 i Hr). cbn [h_bits]. lia.
Qed.
