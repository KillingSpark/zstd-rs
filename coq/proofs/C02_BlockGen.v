(** C02 / C16 / C01: a compressed block = literals section (any encoding the decoder reads back) + sequences part (a
    zero count; or count, mode byte and a sequences section the decoder reads back).  The raw-literals block of
    C02_Block.v, the Huffman-literals block and the block with any table modes (C01_BlockModes.v) are instances. *)
Require Import Zrs.lib.RsPrelude Zrs.proofs.ModelFacts Zrs.gen.Generated Zrs.model.Headers Zrs.model.FseDec Zrs.model.HufDec Zrs.model.BlockDec.
Require Import Zrs.model.SeqSection Zrs.model.BlockEnc.
Require Import Zrs.proofs.C14_Headers Zrs.proofs.C12_Modes.
Open Scope Z_scope.

Section Gen.
  Variables (hdr payload : list Z) (ty regen : Z) (comp streams : option Z).
  Variable sc : scratch.
  Variables (ht' : huf_table) (lits : list Z).
  Hypothesis Hhdr : forall rest, lit_header_parse (hdr ++ rest) = ROk (zlen hdr, ty, regen, comp, streams).
  Hypothesis Hupper : match comp with Some x => x | None => if ty =? 1 then 1 else regen end = zlen payload.
  Hypothesis Hregen : regen = zlen lits /\ regen <= MAX_BLOCK_SIZE.
  Hypothesis Hlits : decode_literals {| ls_type := ty; ls_regen := regen; ls_comp := comp; ls_streams := streams |} (sc_huf sc) payload
                     = ROk (ht', lits, zlen payload).

  (** the literals are read back; what follows them is a sequences header [shdr], parsed as such whatever comes
      after it, and the section [sec] it announces *)
  Lemma block_parts shdr sec nseq modes :
    sequences_header_parse 0 None (shdr ++ sec) = ROk (zlen shdr, nseq, modes) ->
    decompress_block (zlen (hdr ++ payload ++ shdr ++ sec)) sc (hdr ++ payload ++ shdr ++ sec) =
      if negb (nseq =? 0) then
        let* (fs, seqs) := decode_sequences nseq modes sec (sc_fse sc) in
        let* (buf, hist) := execute_sequences seqs lits (sc_buf sc) (sc_hist sc) in
        ROk {| sc_huf := ht'; sc_fse := fs; sc_buf := buf; sc_hist := hist |}
      else if negb (zlen sec =? 0) then RErr "ExtraBits"
      else ROk {| sc_huf := ht'; sc_fse := sc_fse sc; sc_buf := db_push (sc_buf sc) lits; sc_hist := sc_hist sc |}.
  Proof.
    intros Hseq. destruct Hregen as (Hr & Hmax).
    unfold decompress_block. rewrite Hhdr, drop_app.
    destruct (Z.ltb_spec MAX_BLOCK_SIZE regen) as [H|_]; [lia|].
    rewrite Hupper, short_app, take_app, Hlits. cbn [rbind].
    rewrite Hr, !Z.eqb_refl. cbn [negb]. rewrite drop_app, Hseq, drop_app.
    replace (zlen hdr + zlen payload + zlen shdr + zlen sec =? zlen (hdr ++ payload ++ shdr ++ sec)) with true
      by (rewrite !zlen_app; lia).
    reflexivity.
  Qed.

  Lemma block_without_sequences :
    decompress_block (zlen (hdr ++ payload ++ [0])) sc (hdr ++ payload ++ [0]) =
      ROk {| sc_huf := ht'; sc_fse := sc_fse sc; sc_buf := db_push (sc_buf sc) lits; sc_hist := sc_hist sc |}.
  Proof. exact (block_parts [0] [] 0 None eq_refl). Qed.

  (** 98047 = 0xFFFF + 0x7F00 is the largest count the three-byte form of the sequences header holds *)
  Lemma block_with_sequences n m sec fs seqs : 1 <= n <= 98047 ->
    decode_sequences n (Some m) sec (sc_fse sc) = ROk (fs, seqs) ->
    decompress_block (zlen (hdr ++ payload ++ seqnum_layout n ++ m :: sec)) sc (hdr ++ payload ++ seqnum_layout n ++ m :: sec) =
      let* (buf, hist) := execute_sequences seqs lits (sc_buf sc) (sc_hist sc) in
      ROk {| sc_huf := ht'; sc_fse := fs; sc_buf := buf; sc_hist := hist |}.
  Proof.
    intros Hn Hdec. change (m :: sec) with ([m] ++ sec). rewrite (app_assoc (seqnum_layout n)).
    rewrite (block_parts _ sec n (Some m)).
    - destruct (Z.eqb_spec n 0) as [H|_]; [lia|]. cbn [negb]. rewrite Hdec. reflexivity.
    - rewrite <- app_assoc, zlen_app. apply seq_header_after_seqnum. exact Hn.
  Qed.

  Theorem block_decodes dl do dm seqs sp :
    seq_part dl do dm seqs = ROk sp -> Z.of_nat (length seqs) <= 98047 ->
    (seqs <> [] -> section_hyps_b dl do dm seqs = true) ->
    t_max_symbol (fs_ll (sc_fse sc)) = MAX_LITERAL_LENGTH_CODE -> t_max_symbol (fs_of (sc_fse sc)) = MAX_OFFSET_CODE ->
    t_max_symbol (fs_ml (sc_fse sc)) = MAX_MATCH_LENGTH_CODE ->
    decompress_block (zlen (hdr ++ payload ++ sp)) sc (hdr ++ payload ++ sp) =
      match seqs with
      | [] => ROk {| sc_huf := ht'; sc_fse := sc_fse sc; sc_buf := db_push (sc_buf sc) lits; sc_hist := sc_hist sc |}
      | _ =>
          match build_table MAX_LITERAL_LENGTH_CODE dl, build_table MAX_MATCH_LENGTH_CODE dm, build_table MAX_OFFSET_CODE do with
          | ROk Dll, ROk Dml, ROk Dof =>
              let* (buf, hist) := execute_sequences seqs lits (sc_buf sc) (sc_hist sc) in
              ROk {| sc_huf := ht'; sc_fse := C12_SeqStream.sc Dll Dml Dof; sc_buf := buf; sc_hist := hist |}
          | _, _, _ => RErr "tables"
          end
      end.
  Proof.
    intros Hsp Hs Hh M1 M2 M3. unfold seq_part in Hsp. destruct seqs as [|q qs].
    - injection Hsp as <-. apply block_without_sequences.
    - remember (q :: qs) as sq eqn:Es.
      assert (Hn : 1 <= Z.of_nat (length sq) <= 98047) by (rewrite Es in *; cbn [length] in *; lia).
      rewrite (proj1 (encode_seqnum_spec _ Hn)) in Hsp. cbn [rbind] in Hsp.
      destruct (section_bytes dl do dm sq) as [sec|e|e] eqn:Esec; cbn [rbind] in Hsp; try discriminate.
      injection Hsp as <-.
      destruct (section_bytes_roundtrip dl do dm sq sec (sc_fse sc) (Hh ltac:(rewrite Es; discriminate)) Esec M1 M2 M3)
        as (Dll & Dml & Dof & -> & -> & -> & Hdec).
      apply (block_with_sequences _ _ _ _ _ Hn Hdec).
  Qed.
End Gen.
