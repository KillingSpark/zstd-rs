(** C12: FSE decoding tables.  The predefined tables equal the reference implementation's published tables; the
    per-symbol state ranges the decoder assigns partition the state space for every accuracy log and probability; the
    spreading step visits every state exactly once. *)
Require Import Zrs.lib.RsPrelude Zrs.lib.ListFacts Zrs.lib.Sweep Zrs.gen.RefTables Zrs.gen.Generated Zrs.model.BitIO Zrs.model.FseDec.
Open Scope Z_scope.

Definition dtable (max_symbol acc_log : Z) (dist : list Z) : list fse_entry :=
  match fse_build_from_probabilities (fse_new max_symbol) acc_log dist with ROk t => t_decode t | _ => [] end.

(** a reference row is (baseline, additional bits, nbBits, base value); the symbol is identified by (base, bits) *)
Fixpoint rows_agree (es : list fse_entry) (rows : list (Z * Z * Z * Z)) (sym_base sym_bits : list Z) : bool :=
  match es, rows with
  | [], [] => true
  | e :: es', (bl, add, nb, bv) :: rows' =>
      (e_base e =? bl) && (e_bits e =? nb) && (znth sym_base (e_sym e) =? bv) && (znth sym_bits (e_sym e) =? add)
      && rows_agree es' rows' sym_base sym_bits
  | _, _ => false
  end.

Lemma ll_predefined_eq_ref :
  rows_agree (dtable MAX_LITERAL_LENGTH_CODE LL_DEFAULT_ACC_LOG LITERALS_LENGTH_DEFAULT_DISTRIBUTION)
             ref_LL_defaultDTable ref_LL_base ref_LL_bits = true.
Proof. vm_compute. reflexivity. Qed.
Lemma ml_predefined_eq_ref :
  rows_agree (dtable MAX_MATCH_LENGTH_CODE ML_DEFAULT_ACC_LOG MATCH_LENGTH_DEFAULT_DISTRIBUTION)
             ref_ML_defaultDTable ref_ML_base ref_ML_bits = true.
Proof. vm_compute. reflexivity. Qed.
(** offsets: libzstd's base is the value minus 3 for the non-repeat codes; its table identifies the code by the number
    of additional bits, which equals the code *)
Fixpoint of_rows_agree (es : list fse_entry) (rows : list (Z * Z * Z * Z)) : bool :=
  match es, rows with
  | [], [] => true
  | e :: es', (bl, add, nb, bv) :: rows' =>
      (e_base e =? bl) && (e_bits e =? nb) && (e_sym e =? add) && (znth ref_OF_base (e_sym e) =? bv) && of_rows_agree es' rows'
  | _, _ => false
  end.
Lemma of_predefined_eq_ref :
  of_rows_agree (dtable MAX_OFFSET_CODE OF_DEFAULT_ACC_LOG OFFSET_DEFAULT_DISTRIBUTION) ref_OF_defaultDTable = true.
Proof. vm_compute. reflexivity. Qed.

Lemma predefined_sizes :
  length (dtable MAX_LITERAL_LENGTH_CODE LL_DEFAULT_ACC_LOG LITERALS_LENGTH_DEFAULT_DISTRIBUTION) = 64%nat /\
  length (dtable MAX_MATCH_LENGTH_CODE ML_DEFAULT_ACC_LOG MATCH_LENGTH_DEFAULT_DISTRIBUTION) = 64%nat /\
  length (dtable MAX_OFFSET_CODE OF_DEFAULT_ACC_LOG OFFSET_DEFAULT_DISTRIBUTION) = 32%nat.
Proof. repeat split; vm_compute; reflexivity. Qed.

(** the distributions on both sides of the crate equal the reference implementation's *)
Lemma distributions_eq_ref :
  LITERALS_LENGTH_DEFAULT_DISTRIBUTION = ref_LL_defaultNorm /\ MATCH_LENGTH_DEFAULT_DISTRIBUTION = ref_ML_defaultNorm /\
  OFFSET_DEFAULT_DISTRIBUTION = ref_OF_defaultNorm /\
  LL_DIST = ref_LL_defaultNorm /\ ML_DIST = ref_ML_defaultNorm /\ OF_DIST = ref_OF_defaultNorm /\
  LL_DEFAULT_ACC_LOG = 6 /\ ML_DEFAULT_ACC_LOG = 6 /\ OF_DEFAULT_ACC_LOG = 5 /\
  LL_MAX_LOG = 9 /\ ML_MAX_LOG = 9 /\ OF_MAX_LOG = 8.
Proof. repeat split; reflexivity. Qed.

(** for accuracy log al and probability p (1 <= p <= 2^al) the p states, taken in
    increasing order (state_number 0 .. p-1), get ranges [baseline, baseline + 2^nbits) that tile [0, 2^al) exactly:
    first the single-width ones from 0, then the double-width ones *)
Fixpoint ranges (size p : Z) (k : Z) (n : nat) : list (Z * Z) :=
  match n with O => [] | S n' => calc_baseline_and_numbits size p k :: ranges size p (k + 1) n' end.

Fixpoint tile_from (start : Z) (rs : list (Z * Z)) : option Z :=
  match rs with
  | [] => Some start
  | (bl, nb) :: t => if bl =? start then tile_from (start + 2 ^ nb) t else None
  end.

Definition partition_check (al p : Z) : bool :=
  let size := 2 ^ al in
  let rs := ranges size p 0 (Z.to_nat p) in
  let slices := if 2 ^ (highest_bit_set p - 1) =? p then p else 2 ^ highest_bit_set p in
  let double := slices - p in
  let reordered := skipn (Z.to_nat double) rs ++ firstn (Z.to_nat double) rs in
  forallb (fun r => (0 <=? snd r) && (snd r <=? al) && (0 <=? fst r) && (fst r + 2 ^ snd r <=? size)) rs &&
  match tile_from 0 reordered with Some e => e =? size | None => false end.

(** the closed form of [calc_baseline_and_numbits] on a table of size 2^al: the number of slices is the power of two
    2^s in [p, 2p); the first 2^s - p states get two slices each (one bit more), placed after the single ones *)
Definition slices (p : Z) : Z := if 2 ^ (highest_bit_set p - 1) =? p then p else 2 ^ highest_bit_set p.

Lemma slices_spec al p : 0 <= al -> 1 <= p <= 2 ^ al ->
  exists s, 0 <= s <= al /\ slices p = 2 ^ s /\ p <= 2 ^ s < 2 * p /\ 2 ^ s * 2 ^ (al - s) = 2 ^ al.
Proof.
  intros Ha Hp. unfold slices, highest_bit_set. replace (Z.log2 p + 1 - 1) with (Z.log2 p) by lia.
  pose proof (Z.log2_spec p ltac:(lia)) as [Hlo Hhi]. pose proof (Z.log2_nonneg p) as H0.
  rewrite Z.pow_succ_r in Hhi by exact H0.
  assert (G : forall s, 0 <= s -> 2 ^ s < 2 * p -> 0 <= s <= al /\ 2 ^ s * 2 ^ (al - s) = 2 ^ al).
  { intros s Hs Hlt. assert (s < al + 1).
    { apply (Z.pow_lt_mono_r_iff 2); [lia|lia|]. rewrite Z.pow_add_r by lia. change (2 ^ 1) with 2. lia. }
    split; [lia|]. rewrite <- Z.pow_add_r by lia. f_equal. lia. }
  destruct (Z.eqb_spec (2 ^ Z.log2 p) p) as [E|E].
  - exists (Z.log2 p). destruct (G (Z.log2 p) H0 ltac:(lia)) as (A & B). repeat split; try lia.
  - assert (E2 : 2 ^ (Z.log2 p + 1) = 2 * 2 ^ Z.log2 p) by (apply Z.pow_succ_r; exact H0).
    exists (Z.log2 p + 1). destruct (G (Z.log2 p + 1) ltac:(lia) ltac:(lia)) as (A & B). repeat split; try lia.
Qed.

Lemma calc_closed_form al p k s : 0 <= s <= al -> 1 <= p -> slices p = 2 ^ s ->
  calc_baseline_and_numbits (2 ^ al) p k =
    if k <? 2 ^ s - p then ((p - (2 ^ s - p)) * 2 ^ (al - s) + k * 2 ^ (al - s) * 2, al - s + 1)
    else ((k - (2 ^ s - p)) * 2 ^ (al - s), al - s).
Proof.
  intros Hs Hp E. unfold calc_baseline_and_numbits. destruct (Z.eqb_spec p 0); [lia|]. cbv zeta. fold (slices p). rewrite E.
  rewrite <- Z.pow_sub_r by lia. unfold highest_bit_set. rewrite Z.log2_pow2 by lia.
  replace (al - s + 1 - 1) with (al - s) by lia. reflexivity.
Qed.

(** every state's range stays inside the table: what makes [decode[new_state]] in bounds *)
Lemma state_range_inside al p k : 0 <= al -> 1 <= p <= 2 ^ al -> 0 <= k < p ->
  let '(bl, nb) := calc_baseline_and_numbits (2 ^ al) p k in 0 <= nb <= al /\ 0 <= bl /\ bl + 2 ^ nb <= 2 ^ al.
Proof.
  intros Ha Hp Hk. destruct (slices_spec al p Ha Hp) as (s & Hs & E & Hps & Hw). rewrite (calc_closed_form al p k s) by (lia || exact E).
  assert (W : 0 < 2 ^ (al - s)) by (apply Z.pow_pos_nonneg; lia).
  destruct (Z.ltb_spec k (2 ^ s - p)).
  - assert (s <> 0) by (intros ->; change (2 ^ 0) with 1 in *; lia).
    replace (2 ^ (al - s + 1)) with (2 * 2 ^ (al - s)) by (symmetry; apply Z.pow_succ_r; lia). split; [lia|]. nia.
  - split; [lia|]. nia.
Qed.

Corollary state_range_in_table al p k : 5 <= al <= 9 -> 1 <= p <= 2 ^ al -> 0 <= k < p ->
  let '(bl, nb) := calc_baseline_and_numbits (2 ^ al) p k in 0 <= nb <= al /\ 0 <= bl /\ bl + 2 ^ nb <= 2 ^ al.
Proof. intros Ha. apply state_range_inside. lia. Qed.

Lemma state_bits_positive al p k : 0 <= al -> 1 <= p <= 2 ^ (al - 1) -> 1 <= snd (calc_baseline_and_numbits (2 ^ al) p k).
Proof.
  intros Ha Hp. assert (E2 : 2 ^ al = 2 * 2 ^ (al - 1)).
  { destruct (Z.eq_dec al 0) as [->|]; [cbn in Hp; lia|]. rewrite <- Z.pow_succ_r by lia. f_equal. lia. }
  destruct (slices_spec al p Ha ltac:(lia)) as (s & Hs & E & Hps & _). rewrite (calc_closed_form al p k s) by (lia || exact E).
  assert (s < al) by (apply (Z.pow_lt_mono_r_iff 2); lia).
  destruct (k <? 2 ^ s - p); cbn [snd]; lia.
Qed.

Lemma ranges_In size p n : forall k0 r, In r (ranges size p k0 n) ->
  exists k, k0 <= k < k0 + Z.of_nat n /\ r = calc_baseline_and_numbits size p k.
Proof.
  induction n as [|n IH]; intros k0 r Hin; [contradiction|]. cbn [ranges] in Hin. destruct Hin as [<-|Hin].
  - exists k0. split; [lia|reflexivity].
  - destruct (IH _ _ Hin) as (k & Hk & E). exists k. split; [lia|exact E].
Qed.
Lemma ranges_length size p n : forall k, length (ranges size p k n) = n.
Proof. induction n as [|n IH]; intros k; cbn [ranges length]; [reflexivity|]. rewrite IH. reflexivity. Qed.
Lemma ranges_app size p n : forall k m,
  ranges size p k (n + m) = ranges size p k n ++ ranges size p (k + Z.of_nat n) m.
Proof.
  induction n as [|n IH]; intros k m; cbn [Nat.add ranges app]; [f_equal; lia|]. rewrite IH. do 3 f_equal. lia.
Qed.

Lemma tile_from_app a : forall start b,
  tile_from start (a ++ b) = match tile_from start a with Some e => tile_from e b | None => None end.
Proof.
  induction a as [|[bl nb] a IH]; intros start b; cbn [app tile_from]; [reflexivity|]. destruct (bl =? start); [apply IH|reflexivity].
Qed.

Lemma tile_equal_widths size p nb n : forall lo start,
  (forall k, lo <= k < lo + Z.of_nat n -> calc_baseline_and_numbits size p k = (start + (k - lo) * 2 ^ nb, nb)) ->
  tile_from start (ranges size p lo n) = Some (start + Z.of_nat n * 2 ^ nb).
Proof.
  induction n as [|n IH]; intros lo start H; cbn [ranges tile_from]; [f_equal; lia|].
  rewrite (H lo) by lia. replace (start + (lo - lo) * 2 ^ nb) with start by lia. rewrite Z.eqb_refl.
  rewrite (IH (lo + 1) (start + 2 ^ nb)); [f_equal; lia|]. intros k Hk. rewrite (H k) by lia. f_equal. lia.
Qed.

Theorem ranges_partition al p : 0 <= al -> 1 <= p <= 2 ^ al -> partition_check al p = true.
Proof.
  intros Ha Hp. destruct (slices_spec al p Ha Hp) as (s & Hs & E & Hps & Hw).
  unfold partition_check. cbv zeta. fold (slices p). rewrite E. apply andb_true_intro. split.
  - apply forallb_forall. intros r Hr. apply ranges_In in Hr as (k & Hk & ->).
    pose proof (state_range_inside al p k Ha Hp ltac:(lia)) as R. destruct (calc_baseline_and_numbits (2 ^ al) p k) as [bl nb].
    cbn [fst snd]. rewrite !andb_true_iff, !Z.leb_le. lia.
  - assert (W2 : 2 ^ (al - s + 1) = 2 * 2 ^ (al - s)) by (apply Z.pow_succ_r; lia).
    set (d := 2 ^ s - p). assert (Hd : 0 <= d < p) by (unfold d; lia). set (w := 2 ^ (al - s)) in *.
    replace (Z.to_nat p) with (Z.to_nat d + Z.to_nat (p - d))%nat by lia. rewrite ranges_app.
    destruct (split_at_length (ranges (2 ^ al) p 0 (Z.to_nat d)) (ranges (2 ^ al) p (0 + Z.of_nat (Z.to_nat d)) (Z.to_nat (p - d)))) as (Sk & Fi).
    rewrite ranges_length in Sk, Fi. rewrite Sk, Fi, tile_from_app.
    rewrite (tile_equal_widths _ _ (al - s) _ _ 0).
    2:{ intros k Hk. rewrite (calc_closed_form al p k s) by (lia || exact E). fold d.
        destruct (Z.ltb_spec k d); [lia|]. f_equal. unfold w. lia. }
    rewrite (tile_equal_widths _ _ (al - s + 1) _ _ (0 + Z.of_nat (Z.to_nat (p - d)) * 2 ^ (al - s))).
    2:{ intros k Hk. rewrite (calc_closed_form al p k s) by (lia || exact E). fold d.
        destruct (Z.ltb_spec k d); [|lia]. rewrite W2. f_equal. lia. }
    rewrite W2. apply Z.eqb_eq. fold w. rewrite !Z2Nat.id by lia. unfold d. lia.
Qed.

Lemma tile_from_covers rs : forall start e x, tile_from start rs = Some e -> start <= x < e ->
  exists bl nb, In (bl, nb) rs /\ bl <= x < bl + 2 ^ nb.
Proof.
  induction rs as [|[bl nb] t IH]; intros start e x H Hx; cbn [tile_from] in H.
  - injection H as <-. lia.
  - destruct (Z.eqb_spec bl start) as [->|]; [|discriminate].
    destruct (Z.ltb_spec x (start + 2 ^ nb)) as [Hlt|Hge].
    + exists start, nb. split; [left; reflexivity|lia].
    + destruct (IH _ _ x H ltac:(lia)) as (b & n & Hin & Hr). exists b, n. split; [right; exact Hin|exact Hr].
Qed.

Lemma states_cover al p x : 0 <= al -> 1 <= p <= 2 ^ al -> 0 <= x < 2 ^ al ->
  exists k, 0 <= k < p /\ let '(bl, nb) := calc_baseline_and_numbits (2 ^ al) p k in bl <= x < bl + 2 ^ nb.
Proof.
  intros Ha Hp Hx. pose proof (ranges_partition al p Ha Hp) as C. unfold partition_check in C. cbv zeta in C.
  apply andb_prop in C as [_ C]. destruct (tile_from 0 _) as [e|] eqn:Et; [|discriminate]. apply Z.eqb_eq in C. subst e.
  destruct (tile_from_covers _ _ _ x Et Hx) as (bl & nb & Hin & Hr).
  assert (Hin' : In (bl, nb) (ranges (2 ^ al) p 0 (Z.to_nat p))).
  { rewrite <- (firstn_skipn (Z.to_nat (slices p - p))). apply in_or_app. apply in_app_or in Hin. tauto. }
  apply ranges_In in Hin' as (k & Hk & E). exists k. split; [lia|]. rewrite <- E. exact Hr.
Qed.

Theorem state_ranges_partition al p : 5 <= al <= 9 -> 1 <= p <= 2 ^ al -> partition_check al p = true.
Proof. intros Ha. apply ranges_partition. lia. Qed.

Fixpoint orbit (n : nat) (pos size : Z) : list Z :=
  match n with O => [] | S k => pos :: orbit k (next_position pos size) size end.
Fixpoint mem_z (x : Z) (l : list Z) : bool := match l with [] => false | y :: t => (x =? y) || mem_z x t end.
Fixpoint nodup_z (l : list Z) : bool := match l with [] => true | x :: t => negb (mem_z x t) && nodup_z t end.

Definition orbit_check (al : Z) : bool :=
  let size := 2 ^ al in
  let o := orbit (Z.to_nat size) 0 size in
  nodup_z o && forallb (fun x => (0 <=? x) && (x <? size)) o && (next_position (last o 0) size =? 0).

Lemma orbit_sweep : sweep orbit_check 5 10 = true.
Proof. vm_compute. reflexivity. Qed.

Theorem spreading_step_is_a_permutation al : 5 <= al <= 9 -> orbit_check al = true.
Proof. intros H. apply (sweep_spec _ _ _ orbit_sweep al). lia. Qed.
