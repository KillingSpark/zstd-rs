(** C13: the compressor's canonical code ([build_from_weights] of huff0_encoder.rs) in closed form.
    The list the encoder sorts -- symbols with a weight, by (weight, symbol) -- is the concatenation, over the
    weights 1, 2, ... in order, of the symbols of that weight in increasing order ([groups]).  The walk over that list
    gives the k-th symbol of weight w the code (total weight below w) / 2^(w-1) + k, and the division is exact because
    the Kraft sum is a power of two. *)
Require Import Zrs.lib.RsPrelude Zrs.lib.ListFacts Zrs.model.HufEnc Zrs.proofs.C03_HufTable.
Open Scope Z_scope.

Definition lt_e (e h : Z * Z) : bool := (snd e <? snd h) || ((snd e =? snd h) && (fst e <? fst h)).

Lemma insert_past (e : Z * Z) A B : Forall (fun h => lt_e e h = false) A -> insert_sorted e (A ++ B) = A ++ insert_sorted e B.
Proof.
  induction A as [|h t IH]; intros H; [reflexivity|]. inversion H as [|? ? Hh Ht]; subst. cbn [app insert_sorted].
  unfold lt_e in Hh. rewrite Hh. rewrite IH by exact Ht. reflexivity.
Qed.
Lemma insert_here (e h : Z * Z) B : lt_e e h = true -> insert_sorted e (h :: B) = e :: h :: B.
Proof. intros H. cbn [insert_sorted]. unfold lt_e in H. rewrite H. reflexivity. Qed.

Fixpoint group (w : Z) (ws : list Z) (sym : Z) : list (Z * Z) :=
  match ws with
  | [] => []
  | x :: t => if x =? w then (sym, w) :: group w t (sym + 1) else group w t (sym + 1)
  end.
Fixpoint groups (n : nat) (lo : Z) (ws : list Z) (sym : Z) : list (Z * Z) :=
  match n with O => [] | S k => group (lo + 1) ws sym ++ groups k (lo + 1) ws sym end.

Lemma group_spec w ws : forall sym e, In e (group w ws sym) ->
  snd e = w /\ sym <= fst e < sym + Z.of_nat (length ws) /\ nth (Z.to_nat (fst e - sym)) ws (w - 1) = w.
Proof.
  induction ws as [|x t IH]; intros sym e H; cbn [group] in H; [contradiction|]. cbn [length].
  destruct (Z.eqb_spec x w) as [->|Hne].
  - destruct H as [<-|H].
    + cbn [fst snd]. replace (sym - sym) with 0 by lia. cbn. repeat split; lia.
    + destruct (IH _ _ H) as (A & B & C). split; [exact A|]. split; [lia|].
      replace (Z.to_nat (fst e - sym)) with (S (Z.to_nat (fst e - (sym + 1)))) by lia. exact C.
  - destruct (IH _ _ H) as (A & B & C). split; [exact A|]. split; [lia|].
    replace (Z.to_nat (fst e - sym)) with (S (Z.to_nat (fst e - (sym + 1)))) by lia. exact C.
Qed.
Lemma groups_spec n : forall lo ws sym e, In e (groups n lo ws sym) ->
  lo < snd e <= lo + Z.of_nat n /\ sym <= fst e < sym + Z.of_nat (length ws) /\ nth (Z.to_nat (fst e - sym)) ws (snd e - 1) = snd e.
Proof.
  induction n as [|n IH]; intros lo ws sym e H; cbn [groups] in H; [contradiction|]. apply in_app_or in H as [H|H].
  - destruct (group_spec _ _ _ _ H) as (A & B & C). rewrite A. split; [lia|]. split; [exact B|exact C].
  - destruct (IH _ _ _ _ H) as (A & B & C). split; [lia|]. split; assumption.
Qed.

Lemma groups_cons_other n : forall lo x t sym, ~ (lo < x <= lo + Z.of_nat n) -> groups n lo (x :: t) sym = groups n lo t (sym + 1).
Proof.
  induction n as [|n IH]; intros lo x t sym H; cbn [groups]; [reflexivity|]. cbn [group].
  destruct (Z.eqb_spec x (lo + 1)); [lia|]. rewrite IH by lia. reflexivity.
Qed.

Lemma insert_into_groups n : forall lo w t sym, lo < w <= lo + Z.of_nat n ->
  insert_sorted (sym, w) (groups n lo t (sym + 1)) = groups n lo (w :: t) sym.
Proof.
  induction n as [|n IH]; intros lo w t sym Hw; [lia|]. cbn [groups].
  destruct (Z.eq_dec w (lo + 1)) as [->|Hne].
  - (* this is the group of w: the new entry goes to its front *)
    cbn [group]. rewrite Z.eqb_refl. rewrite groups_cons_other by lia. cbn [app].
    destruct (group (lo + 1) t (sym + 1) ++ groups n (lo + 1) t (sym + 1)) as [|h B] eqn:E; [reflexivity|].
    assert (Hh : In h (group (lo + 1) t (sym + 1) ++ groups n (lo + 1) t (sym + 1))) by (rewrite E; left; reflexivity).
    rewrite insert_here; [reflexivity|]. unfold lt_e. cbn [fst snd]. apply in_app_or in Hh as [Hh|Hh].
    + destruct (group_spec _ _ _ _ Hh) as (A & B0 & _). rewrite A, Z.ltb_irrefl, Z.eqb_refl. cbn [orb andb]. apply Z.ltb_lt. lia.
    + destruct (groups_spec _ _ _ _ _ Hh) as (A & B0 & _). assert (lo + 1 <? snd h = true) as -> by (apply Z.ltb_lt; lia). reflexivity.
  - (* a heavier symbol: past the whole group lo+1 *)
    cbn [group]. destruct (Z.eqb_spec w (lo + 1)); [lia|].
    rewrite insert_past.
    + rewrite IH by lia. reflexivity.
    + apply Forall_forall. intros h Hh. destruct (group_spec _ _ _ _ Hh) as (A & B0 & _). unfold lt_e. cbn [fst snd]. rewrite A.
      assert (w <? lo + 1 = false) as -> by (apply Z.ltb_ge; lia). assert (w =? lo + 1 = false) as -> by lia. reflexivity.
Qed.

Theorem sorted_entries_groups n ws : forall sym, Forall (fun w => 0 <= w <= Z.of_nat n) ws ->
  sorted_entries ws sym = groups n 0 ws sym.
Proof.
  induction ws as [|w t IH]; intros sym H; cbn [sorted_entries].
  - clear. generalize 0. induction n as [|n IHn]; intros lo; cbn [groups group]; [reflexivity|]. rewrite <- IHn. reflexivity.
  - inversion H as [|? ? Hw Ht]; subst. rewrite IH by exact Ht.
    destruct (Z.ltb_spec 0 w) as [Hpos|Hz].
    + apply insert_into_groups. lia.
    + assert (w = 0) by lia. subst w. rewrite groups_cons_other by lia. reflexivity.
Qed.

(** the (code, length) that [assign_enc] writes for [s] *)
Fixpoint acode (es : list (Z * Z)) (max_bits cur_code cur_weight cur_bits : Z) (s : Z) : option (Z * Z) :=
  match es with
  | [] => None
  | (sym, w) :: t =>
      let '(cc, cb, cw) :=
        if negb (cur_weight =? w) then (cur_code / 2 ^ (w - cur_weight), max_bits - w + 1, w)
        else (cur_code, cur_bits, cur_weight) in
      if sym =? s then Some (cc, cb) else acode t max_bits (cc + 1) cw cb s
  end.

Lemma acode_none es : forall M cc cw cb s, ~ In s (map fst es) -> acode es M cc cw cb s = None.
Proof.
  induction es as [|[y v] u IH]; intros M cc cw cb s Hn; [reflexivity|]. cbn [acode].
  destruct (if negb (cw =? v) then _ else _) as [[p q] r]. destruct (Z.eqb_spec y s) as [->|]; [exfalso; apply Hn; left; reflexivity|].
  apply IH. intros H. apply Hn. right. exact H.
Qed.



Lemma assign_enc_nth es : forall M cc cw cb codes s d,
  NoDup (map fst es) -> Forall (fun e => 0 <= fst e < Z.of_nat (length codes)) es -> 0 <= s ->
  nth (Z.to_nat s) (assign_enc es M cc cw cb codes) d =
    match acode es M cc cw cb s with Some c => c | None => nth (Z.to_nat s) codes d end.
Proof.
  induction es as [|[sym w] t IH]; intros M cc cw cb codes s d Hnd Hr Hs; cbn [assign_enc acode]; [reflexivity|].
  cbn [map fst] in Hnd. inversion Hnd as [|? ? Hnotin Hnd']; subst. inversion Hr as [|? ? Hsym Hr']; subst. cbn [fst] in Hsym.
  destruct (if negb (cw =? w) then (cc / 2 ^ (w - cw), M - w + 1, w) else (cc, cb, cw)) as [[cc1 cb1] cw1] eqn:Est.
  set (codes1 := firstn (Z.to_nat sym) codes ++ [(cc1, cb1)] ++ skipn (S (Z.to_nat sym)) codes).
  assert (L1 : length codes1 = length codes).
  { unfold codes1. rewrite !app_length, firstn_length, skipn_length. cbn [length]. lia. }
  rewrite IH; [|exact Hnd'|rewrite L1; exact Hr'|exact Hs].
  destruct (Z.eqb_spec sym s) as [->|Hne].
  - (* later entries do not touch this symbol *)
    rewrite (acode_none t _ _ _ _ s Hnotin). unfold codes1. rewrite nth_splice by lia. rewrite Nat.eqb_refl. reflexivity.
  - destruct (acode t M (cc1 + 1) cw1 cb1 s); [reflexivity|].
    unfold codes1. rewrite nth_splice by lia. destruct (Nat.eqb_spec (Z.to_nat s) (Z.to_nat sym)); [lia|reflexivity].
Qed.

Lemma acode_in_group w M cb W : forall k sym cc rest, (k < length W)%nat -> nth k W 0 = w ->
  acode (group w W sym ++ rest) M cc w cb (sym + Z.of_nat k) = Some (cc + cnt w (firstn k W), cb).
Proof.
  induction W as [|x t IH]; intros k sym cc rest Hk Hw; [cbn in Hk; lia|]. cbn [group]. destruct k as [|k].
  - cbn [nth] in Hw. subst x. rewrite Z.eqb_refl. cbn [app acode firstn cnt Z.of_nat]. rewrite !Z.add_0_r, !Z.eqb_refl. reflexivity.
  - cbn [nth length firstn cnt] in *. replace (sym + Z.of_nat (S k)) with (sym + 1 + Z.of_nat k) by lia.
    destruct (Z.eqb_spec x w) as [->|Hne].
    + cbn [app acode]. rewrite Z.eqb_refl. cbn [negb]. destruct (Z.eqb_spec sym (sym + 1 + Z.of_nat k)); [lia|].
      rewrite (IH k (sym + 1) (cc + 1) rest ltac:(lia) Hw). do 2 f_equal. lia.
    + rewrite (IH k (sym + 1) cc rest ltac:(lia) Hw). reflexivity.
Qed.

Lemma acode_past_group w M cb W : forall sym cc rest s,
  (forall k, (k < length W)%nat -> s = sym + Z.of_nat k -> nth k W 0 <> w) ->
  acode (group w W sym ++ rest) M cc w cb s = acode rest M (cc + cnt w W) w cb s.
Proof.
  induction W as [|x t IH]; intros sym cc rest s H; cbn [group cnt]; [rewrite Z.add_0_r; reflexivity|].
  assert (Ht : forall k, (k < length t)%nat -> s = sym + 1 + Z.of_nat k -> nth k t 0 <> w).
  { intros k Hk Hs. apply (H (S k)); [cbn [length]; lia|lia]. }
  destruct (Z.eqb_spec x w) as [->|Hne].
  - cbn [app acode]. rewrite Z.eqb_refl. cbn [negb].
    destruct (Z.eqb_spec sym s) as [<-|_]; [exfalso; apply (H 0%nat); [cbn [length]; lia|lia|reflexivity]|].
    rewrite (IH _ _ _ _ Ht). f_equal. lia.
  - rewrite (IH _ _ _ _ Ht). reflexivity.
Qed.

Lemma acode_enter sym w t M cc cw cb s : cw <> w ->
  acode ((sym, w) :: t) M cc cw cb s = acode ((sym, w) :: t) M (cc / 2 ^ (w - cw)) w (M - w + 1) s.
Proof. intros H. cbn [acode]. destruct (Z.eqb_spec cw w); [lia|]. rewrite Z.eqb_refl. reflexivity. Qed.

Lemma group_empty w ws : forall sym, cnt w ws = 0 -> group w ws sym = [].
Proof.
  induction ws as [|x t IH]; intros sym H; [reflexivity|]. cbn [group cnt] in *. pose proof (cnt_nonneg w t).
  destruct (Z.eqb_spec x w); [lia|]. apply IH. lia.
Qed.
Lemma group_nonempty w ws : forall sym, 0 < cnt w ws -> exists e t, group w ws sym = e :: t /\ snd e = w.
Proof.
  induction ws as [|x t IH]; intros sym H; [cbn in H; lia|]. cbn [group cnt] in *.
  destruct (Z.eqb_spec x w); [eexists _, _; split; reflexivity|]. apply IH. lia.
Qed.

Fixpoint below (n : nat) (W : list Z) : Z :=
  match n with O => 0 | S k => below k W + cnt (Z.of_nat k + 1) W * 2 ^ Z.of_nat k end.

(** Before the group of weight l0 + 1 the next code [cc], at the current weight [cw], stands for the
    total weight below: cc * 2^(cw - 1) = below l0.  Entering a group of weight w divides by 2^(w - cw), exactly,
    because the weight below is a multiple of 2^(w - 1) *)
Lemma acode_groups W M n : forall l0 cc cw cb s,
  0 <= cw <= Z.of_nat l0 -> cc * 2 ^ cw = 2 * below l0 W ->
  (forall k, (l0 <= k < l0 + n)%nat -> 0 < cnt (Z.of_nat k + 1) W -> below k W mod 2 ^ Z.of_nat k = 0) ->
  (s < length W)%nat -> let w := nth s W 0 in Z.of_nat l0 < w <= Z.of_nat l0 + Z.of_nat n ->
  acode (groups n (Z.of_nat l0) W 0) M cc cw cb (Z.of_nat s) =
    Some (below (Z.to_nat (w - 1)) W / 2 ^ (w - 1) + cnt w (firstn s W), M - w + 1).
Proof.
  induction n as [|n IH]; intros l0 cc cw cb s Hcw Hinv Hdiv Hs ws Hw; [lia|]. cbn [groups].
  replace (Z.of_nat l0 + 1) with (Z.of_nat (S l0)) by lia. set (w := Z.of_nat (S l0)). assert (Ew : w = Z.of_nat l0 + 1) by (unfold w; lia).
  pose proof (cnt_nonneg w W) as Hc0. pose proof (cnt_nth_pos 0 s W Hs) as Hcs. fold ws in Hcs.
  assert (P : 0 < 2 ^ Z.of_nat l0) by (apply Z.pow_pos_nonneg; lia).
  assert (Ebelow : below (S l0) W = below l0 W + cnt w W * 2 ^ Z.of_nat l0) by (cbn [below]; rewrite <- Ew; reflexivity).
  destruct (Z.eq_dec (cnt w W) 0) as [Ez|Enz].
  - (* nobody has this weight *)
    rewrite (group_empty w W 0 Ez). cbn [app].
    apply (IH (S l0)); [lia|rewrite Ebelow, Ez; lia|intros k Hk; apply Hdiv; lia|exact Hs|].
    fold ws. assert (ws <> w) by (intros E; rewrite E in Hcs; lia). lia.
  - (* the group of weight w; its first code is the weight below, in units of this weight *)
    destruct (group_nonempty w W 0 ltac:(lia)) as ([sy wy] & t & Eg & Ewy). cbn [snd] in Ewy. subst wy.
    rewrite Eg. cbn [app]. rewrite acode_enter by lia.
    change ((sy, w) :: t ++ groups n w W 0) with (((sy, w) :: t) ++ groups n w W 0). rewrite <- Eg.
    pose proof (Hdiv l0 ltac:(lia)) as Hd0. rewrite <- Ew in Hd0. specialize (Hd0 ltac:(lia)).
    apply Z.mod_divide in Hd0; [|lia]. destruct Hd0 as (q & Eq).
    assert (E2w : 2 ^ w = 2 * 2 ^ Z.of_nat l0) by (rewrite Ew, Z.pow_add_r by lia; change (2 ^ 1) with 2; lia).
    assert (Pc : 0 < 2 ^ cw) by (apply Z.pow_pos_nonneg; lia).
    assert (Ecc : cc / 2 ^ (w - cw) = q).
    { assert (E3 : 2 ^ w = 2 ^ (w - cw) * 2 ^ cw) by (rewrite <- Z.pow_add_r by lia; f_equal; lia).
      assert (P3 : 0 < 2 ^ (w - cw)) by (apply Z.pow_pos_nonneg; lia).
      assert (cc = q * 2 ^ (w - cw)); [|subst cc; apply Z.div_mul; lia].
      apply (Z.mul_reg_r _ _ (2 ^ cw)); [lia|]. rewrite Hinv, Eq, <- Z.mul_assoc, <- E3, E2w. ring. }
    rewrite Ecc. destruct (Z.eq_dec ws w) as [Es|Ns].
    + rewrite <- (Z.add_0_l (Z.of_nat s)), (acode_in_group w M _ W s 0 q _ Hs Es), Es.
      replace (w - 1) with (Z.of_nat l0) by (clear - Ew; lia). rewrite Nat2Z.id, Eq, Z.div_mul by (clear - P; lia). reflexivity.
    + rewrite acode_past_group by (intros k Hk Hk'; replace k with s by (clear - Hk'; lia); exact Ns).
      apply (IH (S l0)); [clear - Ew; lia|rewrite Ebelow, Eq, E2w; ring|intros k Hk; apply Hdiv; clear - Hk; lia|exact Hs|fold ws; clear - Hw Ns Ew; lia].
Qed.

Lemma group_nodup w ws : forall sym, NoDup (map fst (group w ws sym)).
Proof.
  induction ws as [|x t IH]; intros sym; cbn [group]; [constructor|]. destruct (x =? w); [|apply IH].
  cbn [map fst]. constructor; [|apply IH]. intros H. apply in_map_iff in H as (e & E & He). destruct (group_spec _ _ _ _ He) as (_ & B & _). lia.
Qed.

Lemma groups_nodup n : forall lo ws sym, NoDup (map fst (groups n lo ws sym)).
Proof.
  induction n as [|n IH]; intros lo ws sym; cbn [groups]; [constructor|]. rewrite map_app.
  apply NoDup_app_intro; [apply group_nodup|apply IH|].
  intros x Hx Hy. apply in_map_iff in Hx as (e1 & E1 & H1). apply in_map_iff in Hy as (e2 & E2 & H2).
  destruct (group_spec _ _ _ _ H1) as (A1 & B1 & C1). destruct (groups_spec _ _ _ _ _ H2) as (A2 & B2 & C2).
  rewrite E1 in C1. rewrite E2 in C2.
  assert (L : (Z.to_nat (x - sym) < length ws)%nat) by lia.
  rewrite (nth_indep ws _ 0 L) in C1. rewrite (nth_indep ws _ 0 L) in C2. lia.
Qed.

Lemma below_cons n : forall x t, below n (x :: t) = below n t + (if (0 <? x) && (x <=? Z.of_nat n) then 2 ^ (x - 1) else 0).
Proof.
  induction n as [|n IH]; intros x t; cbn [below].
  - destruct (Z.ltb_spec 0 x); destruct (Z.leb_spec x (Z.of_nat 0)); cbn [andb]; lia.
  - rewrite IH. cbn [cnt]. destruct (Z.eqb_spec x (Z.of_nat n + 1)) as [E|Ne].
    + assert ((0 <? x) && (x <=? Z.of_nat n) = false) as -> by lia. assert ((0 <? x) && (x <=? Z.of_nat (S n)) = true) as -> by lia.
      replace (x - 1) with (Z.of_nat n) by lia. lia.
    + destruct (Z.ltb_spec 0 x); destruct (Z.leb_spec x (Z.of_nat n)); destruct (Z.leb_spec x (Z.of_nat (S n))); cbn [andb]; lia.
Qed.
Lemma kraft_below n W : Forall (fun w => 0 <= w <= Z.of_nat n) W -> kraft W = below n W.
Proof.
  induction 1 as [|x t Hx Ht IH]; [clear; induction n as [|n IHn]; cbn [below cnt kraft fold_right] in *; lia|].
  rewrite below_cons, <- IH. unfold kraft. cbn [fold_right]. assert (x <=? Z.of_nat n = true) as -> by lia. rewrite andb_true_r. lia.
Qed.
Lemma below_nonneg n W : 0 <= below n W.
Proof. induction n as [|n IH]; cbn [below]; [lia|]. pose proof (cnt_nonneg (Z.of_nat n + 1) W). pose proof (Z.pow_nonneg 2 (Z.of_nat n) ltac:(lia)). nia. Qed.
Lemma below_split W k : forall d, exists q, 0 <= q /\ below (k + d) W = below k W + q * 2 ^ Z.of_nat k /\ (0 < cnt (Z.of_nat k + 1) W -> (0 < d)%nat -> 1 <= q).
Proof.
  induction d as [|d (q & Hq & E & Hpos)].
  - exists 0. rewrite Nat.add_0_r. split; [lia|]. split; [lia|lia].
  - replace (k + S d)%nat with (S (k + d)) by lia. cbn [below]. rewrite E.
    pose proof (cnt_nonneg (Z.of_nat (k + d) + 1) W) as Hc.
    exists (q + cnt (Z.of_nat (k + d) + 1) W * 2 ^ Z.of_nat d).
    assert (P : 0 < 2 ^ Z.of_nat d) by (apply Z.pow_pos_nonneg; lia).
    split; [nia|]. split.
    + rewrite Nat2Z.inj_add, Z.pow_add_r by lia. lia.
    + intros Hk _. destruct d as [|d']; [rewrite Nat.add_0_r in *; cbn [Z.of_nat] in *; change (2 ^ 0) with 1 in *; lia|specialize (Hpos Hk ltac:(lia)); nia].
Qed.

Lemma kraft_divides W n M : Forall (fun w => 0 <= w <= Z.of_nat n) W -> kraft W = 2 ^ M -> 0 <= M ->
  forall k, (k < n)%nat -> 0 < cnt (Z.of_nat k + 1) W -> below k W mod 2 ^ Z.of_nat k = 0.
Proof.
  intros Hw Hk HM k Hkn Hc. rewrite (kraft_below n W Hw) in Hk.
  destruct (below_split W k (n - k)) as (q & Hq & E & Hpos). replace (k + (n - k))%nat with n in E by lia. specialize (Hpos Hc ltac:(lia)).
  assert (P : 0 < 2 ^ Z.of_nat k) by (apply Z.pow_pos_nonneg; lia).
  pose proof (below_nonneg k W) as B0.
  (* M >= k because the total is at least 2^k *)
  assert (HMk : Z.of_nat k <= M).
  { destruct (Z.le_gt_cases (Z.of_nat k) M) as [|Hlt]; [assumption|]. exfalso.
    assert (2 ^ M < 2 ^ Z.of_nat k) by (apply Z.pow_lt_mono_r; lia). nia. }
  assert (E2 : 2 ^ M = 2 ^ (M - Z.of_nat k) * 2 ^ Z.of_nat k) by (rewrite <- Z.pow_add_r by lia; f_equal; lia).
  apply Z.mod_divide; [lia|]. exists (2 ^ (M - Z.of_nat k) - q). lia.
Qed.

Theorem enc_codes_closed_form W nmax codes : Forall (fun w => 0 <= w <= Z.of_nat nmax) W ->
  enc_build_from_weights W = ROk codes ->
  forall s, 0 <= s < Z.of_nat (length W) -> let w := nth (Z.to_nat s) W (-1) in 0 < w ->
    nth (Z.to_nat s) codes (0, 0) =
      (below (Z.to_nat (w - 1)) W / 2 ^ (w - 1) + cnt w (firstn (Z.to_nat s) W), Z.log2 (kraft W) - w + 1).
Proof.
  intros Hw Hb s Hs w Hpos. unfold enc_build_from_weights in Hb.
  destruct (is_pow2z (kraft W)) eqn:Ep; cbn [negb] in Hb; [|discriminate]. injection Hb as <-.
  unfold is_pow2z in Ep. apply andb_prop in Ep as [Ep1 Ep2].
  set (M := Z.log2 (kraft W)) in *. assert (HK : kraft W = 2 ^ M) by lia. pose proof (Z.log2_nonneg (kraft W)) as HM0. fold M in HM0.
  rewrite (sorted_entries_groups nmax W 0 Hw).
  rewrite assign_enc_nth; [|apply groups_nodup| |lia].
  2:{ apply Forall_forall. intros e He. destruct (groups_spec _ _ _ _ _ He) as (_ & B & _). rewrite map_length. lia. }
  rewrite Forall_forall in Hw. pose proof (Hw w ltac:(apply nth_In; lia)) as Hwr.
  pose proof (acode_groups W M nmax 0 0 0 0 (Z.to_nat s) ltac:(lia) ltac:(cbn [below]; lia)) as E.
  rewrite (nth_indep W 0 (-1)), Z2Nat.id in E by lia. fold w in E. cbn [Z.of_nat] in E.
  rewrite E; [reflexivity| |lia|lia]. intros k Hk. apply (kraft_divides W nmax M); [apply Forall_forall; exact Hw|exact HK|exact HM0|lia].
Qed.
