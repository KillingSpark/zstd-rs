(** C03: decoding the content of one block never panics.  For every byte string as block content and every scratch space
    in the condition the decoder keeps it in (buffer well formed, offset history three non-negative entries, Huffman table
    unset or complete, FSE tables unset or sound), [decompress_block] returns a result or an error -- none of the slice
    bounds, index operations, arithmetic checks and assertions in the literals section, the sequences section, sequence
    execution and the block decoder can fire -- and a result leaves the scratch space in the same condition. *)
Require Import Zrs.lib.RsPrelude Zrs.proofs.ModelFacts Zrs.lib.ResFacts Zrs.gen.Generated Zrs.model.Headers Zrs.model.BlockDec.
Require Import Zrs.proofs.C05_Block Zrs.proofs.C11_Reset Zrs.proofs.C14_Headers.
Require Import Zrs.proofs.C03_HufBuild Zrs.proofs.C03_Literals Zrs.proofs.C03_Sequences Zrs.proofs.C03_Exec.
Open Scope Z_scope.

Definition scratch_sound (sc : scratch) : Prop :=
  scratch_ok sc /\ huf_good (sc_huf sc) /\ fscratch_ok (sc_fse sc).

Lemma spec_seq_header_used src used n modes : spec_seq_header src = Some (used, n, modes) -> 0 <= used <= zlen src.
Proof.
  unfold spec_seq_header, zlen. intros H. destruct src as [|b0 t]; [discriminate|]. cbn [length].
  destruct (b0 =? 0); [injection H as <- _ _; lia|].
  destruct (b0 <? 128); [destruct t; [discriminate|injection H as <- _ _; cbn [length]; lia]|].
  destruct (b0 <? 255).
  - destruct t as [|b1 t']; [discriminate|]. cbv zeta in H. destruct (_ =? 0); [injection H as <- _ _; cbn [length]; lia|].
    destruct t'; [discriminate|injection H as <- _ _; cbn [length]; lia].
  - destruct t as [|b1 [|b2 [|m t']]]; try discriminate. injection H as <- _ _. cbn [length]. lia.
Qed.

Theorem decompress_block_never_panics sc raw : scratch_sound sc -> bytes_ok raw = true ->
  match decompress_block (zlen raw) sc raw with
  | ROk sc' => scratch_sound sc'
  | RErr _ => True
  | RPanic _ => False
  end.
Proof.
  intros ((Wb & Hh) & Gh & Gf) B. unfold decompress_block.
  pose proof (lit_header_parse_shape raw B) as LS.
  destruct (lit_header_parse raw) as [[[[[used ty] regen] comp] streams]|e|e]; [|exact I|contradiction].
  destruct LS as (Hu & Hreg & Hshape).
  destruct (MAX_BLOCK_SIZE <? regen); [exact I|].
  set (upper := match comp with Some x => x | None => if ty =? 1 then 1 else regen end).
  pose proof (drop_len used raw ltac:(lia)) as L1. remember (drop_z used raw) as raw1 eqn:Er1.
  assert (B1 : bytes_ok raw1 = true) by (subst raw1; apply bytes_ok_skipn; exact B).
  destruct (Z.ltb_spec (zlen raw1) upper) as [|Hup]; [exact I|].
  assert (Hup0 : 0 <= upper).
  { unfold upper. destruct Hshape as [(_ & -> & _)|(_ & (c & -> & Hc) & _)]; [destruct (ty =? 1); lia|exact Hc]. }
  set (sec := {| ls_type := ty; ls_regen := regen; ls_comp := comp; ls_streams := streams |}).
  assert (Hsec : sec_ok sec).
  { split; [exact Hreg|]. destruct Hshape as [(A & C & _)|(A & C & D)]; [left; tauto|right; tauto]. }
  assert (Lt : zlen (take_z upper raw1) = upper) by (unfold zlen, take_z in *; rewrite firstn_length; lia).
  eapply post_bind; [apply (decode_literals_ok sec (sc_huf sc) (take_z upper raw1) Hsec Gh); [apply bytes_ok_firstn; exact B1|exact Lt]|].
  intros [[ht lits] used_lit] (Gh' & Hl & Hul). cbn [ls_regen sec] in Hl.
  destruct (Z.eqb_spec regen (zlen lits)) as [_|N]; [|lia]. cbn [negb].
  destruct (Z.eqb_spec used_lit upper) as [_|N]; [|lia]. cbn [negb].
  pose proof (drop_len upper raw1 ltac:(lia)) as L2. remember (drop_z upper raw1) as raw2 eqn:Er2.
  assert (B2 : bytes_ok raw2 = true) by (subst raw2; apply bytes_ok_skipn; exact B1).
  rewrite (seq_header_parse_spec raw2 B2).
  destruct (spec_seq_header raw2) as [[[used_seq nseq] modes]|] eqn:Esh; [|exact I].
  pose proof (drop_len used_seq raw2 (spec_seq_header_used _ _ _ _ Esh)) as L3. remember (drop_z used_seq raw2) as raw3 eqn:Er3.
  assert (B3 : bytes_ok raw3 = true) by (subst raw3; apply bytes_ok_skipn; exact B2).
  destruct (Z.eqb_spec (used + used_lit + used_seq + zlen raw3) (zlen raw)) as [_|N]; [|lia]. cbn [negb].
  destruct (nseq =? 0); cbn [negb].
  - destruct (negb (zlen raw3 =? 0)); [exact I|].
    split; [split; [apply (push_inv (sc_buf sc) lits Wb)|exact Hh]|]. split; [exact Gh'|exact Gf].
  - eapply post_bind; [apply (decode_sequences_never_panics nseq modes raw3 (sc_fse sc) B3 Gf)|]. intros [fs seqs] (Gf' & Hseqs).
    eapply post_bind; [apply (execute_sequences_never_panics seqs lits (sc_buf sc) (sc_hist sc) Wb Hh Hseqs)|]. intros [buf hist] (Wb' & Hh').
    split; [split; assumption|]. split; assumption.
Qed.
