(** C12 / C02: what the whole-section theorems (C12_Modes.v) are composed of, beside the stream round trip
    (C12_SeqStreamR.v): a table built from a written description (C12_Desc.v) is the table built from the
    distribution; the value -> code mapping of the executable section writer is inverted by the decoder's code tables
    (C14_Tables.v), and its side conditions are decidable. *)
Require Import Zrs.lib.RsPrelude Zrs.gen.Generated Zrs.model.FseDec Zrs.model.BlockDec.
Require Import Zrs.model.BitStream Zrs.model.SeqEnc Zrs.model.FseEnc Zrs.model.SeqSection.
Require Import Zrs.proofs.C12_SeqStream Zrs.proofs.C12_Desc Zrs.proofs.C14_Tables.
Open Scope Z_scope.

Lemma stream_bytes_nonempty fs : stream_bytes fs <> [].
Proof.
  unfold stream_bytes. destruct (stream_bits fs) as [|b l] eqn:E.
  - unfold stream_bits in E. destruct (fields_bits fs); discriminate.
  - cbn [length bytes_of_bits]. discriminate.
Qed.

Lemma build_decoder_of_description t acc_log probs max_log rest D d :
  5 <= acc_log <= 20 -> acc_log <= max_log -> dist_ok acc_log probs ->
  Z.of_nat (length probs) <= t_max_symbol t + 1 -> rest <> [] ->
  desc_bytes acc_log probs = Some d ->
  fse_build_from_probabilities t acc_log probs = ROk D ->
  fse_build_decoder t (d ++ rest) max_log = ROk (D, zlen d).
Proof.
  intros Hal Hml Hd Hlen Hrest Hdesc Hb.
  destruct (description_roundtrip acc_log probs (t_max_symbol t) max_log rest Hal Hml Hd Hlen Hrest) as (d' & Hd' & Hr).
  rewrite Hdesc in Hd'. injection Hd' as <-.
  unfold fse_build_decoder. rewrite Hr. cbn [rbind].
  unfold fse_build_from_probabilities in Hb.
  destruct (Z.eqb_spec acc_log 0) as [E|_]; [lia|].
  destruct (build_decoding_table (t_max_symbol t) acc_log probs) as [[dec counter]|e|e]; cbn [rbind] in *; try discriminate.
  injection Hb as <-. reflexivity.
Qed.

Lemma build_indep t acc_log probs :
  fse_build_from_probabilities t acc_log probs = fse_build_from_probabilities (fse_new (t_max_symbol t)) acc_log probs.
Proof. reflexivity. Qed.

Lemma width_nonneg a n : 0 <= a < 2 ^ n -> 0 <= n.
Proof. intros H. destruct (Z.ltb_spec n 0) as [N|N]; [rewrite Z.pow_neg_r in H by exact N; lia|exact N]. Qed.

Lemma to_cseq_ok s q : seq_range_b s = true -> to_cseq s = ROk q -> cseq_ok q /\ cseq_value q = Some s.
Proof.
  unfold seq_range_b. intros Hr Hq.
  assert (R : 0 <= sq_ll s <= 131071 /\ 3 <= sq_ml s <= 131074 /\ 1 <= sq_of s < 2 ^ 32) by lia.
  destruct R as (Rl & Rm & Ro).
  destruct (ll_roundtrip (sq_ll s) Rl) as (cl & al & nl & bl & El & Ll & Cl & Al & Vl & _).
  destruct (ml_roundtrip (sq_ml s) Rm) as (cm & am & nm & bm & Em & Lm & Cm & Am & Vm & _).
  pose proof (encode_offset_spec (sq_of s) Ro) as Ho.
  unfold to_cseq in Hq. rewrite El, Em in Hq. cbn [rbind] in Hq.
  destruct (encode_offset (sq_of s)) as [[co ao] no]. destruct Ho as (Hn & Co & Ao & Vo & _).
  injection Hq as <-.
  pose proof (width_nonneg _ _ Al) as Nl. pose proof (width_nonneg _ _ Am) as Nm.
  unfold cseq_ok, cseq_value. cbn [c_ll a_ll n_ll c_ml a_ml n_ml c_of a_of].
  rewrite !Z2Nat.id by lia. rewrite Ll, Lm. unfold MAX_OFFSET_CODE.
  split.
  - repeat split; try lia; eexists; reflexivity.
  - destruct s as [l m o]. cbn [sq_ll sq_ml sq_of] in *. f_equal. f_equal; lia.
Qed.

Lemma map_res_to_cseq seqs : forall qs, forallb seq_range_b seqs = true -> map_res to_cseq seqs = ROk qs ->
  Forall cseq_ok qs /\ Forall2 (fun q v => cseq_value q = Some v) qs seqs /\ length qs = length seqs.
Proof.
  induction seqs as [|s t IH]; intros qs Hr Hm; cbn [map_res] in Hm.
  - injection Hm as <-. repeat split; constructor.
  - cbn [forallb] in Hr. apply andb_prop in Hr as [Hs Ht].
    destruct (to_cseq s) as [q|e|e] eqn:Eq; cbn [rbind] in Hm; try discriminate.
    destruct (map_res to_cseq t) as [r|e|e] eqn:Er; cbn [rbind] in Hm; try discriminate.
    injection Hm as <-. destruct (IH r Ht eq_refl) as (I1 & I2 & I3).
    destruct (to_cseq_ok s q Hs Eq) as (O1 & O2).
    repeat split; [constructor; assumption|constructor; assumption|cbn [length]; lia].
Qed.

Lemma forall2_value_unique qs : forall vals seqs,
  Forall2 (fun q v => cseq_value q = Some v) qs vals -> Forall2 (fun q v => cseq_value q = Some v) qs seqs -> vals = seqs.
Proof.
  induction qs as [|q t IH]; intros vals seqs H1 H2; inversion H1; inversion H2; subst; [reflexivity|].
  f_equal; [congruence|]. apply IH; assumption.
Qed.

Lemma dist_side_ok d max_log max_symbol : dist_side_b d max_log max_symbol = true ->
  dist_ok (fst d) (snd d) /\ 5 <= fst d <= max_log /\ Z.of_nat (length (snd d)) <= max_symbol + 1.
Proof.
  unfold dist_side_b. rewrite !andb_true_iff. intros (((H1 & H2) & H3) & H4). split; [apply dist_okb_ok; exact H1|lia].
Qed.
