(** C07: initialising a decoder for a new frame yields the same per-frame state whether or not it was used before.
    The file also says what [fdec_reset] computes ([fdec_reset_eq], [fdec_reset_ok]): the other proofs about frame
    initialisation go through these instead of unfolding it. *)
Require Import Zrs.lib.RsPrelude Zrs.gen.Generated Zrs.model.Headers Zrs.model.BitIO Zrs.model.FseDec Zrs.model.HufDec
               Zrs.model.BlockDec Zrs.model.FrameDec.

(** [fdec_reset] in parts: the scratch area and the events (the only places where the previous state is looked
    at), the dictionary named by the header, the new per-frame state *)
Definition reset_scratch (d : fdec) (w : Z) : scratch :=
  match fd_state d with Some s => scratch_reset (fr_scratch s) w | None => scratch_new w end.

Definition reset_events (d : fdec) (w : Z) : list event :=
  match fd_state d with Some _ => [EvHeader; EvWindowOk w; EvReserve w] | None => [EvHeader; EvWindowOk w] end.

Definition load_dict (dicts : list dictionary) (h : frame_header) (sc : scratch) : res (scratch * option Z) :=
  match fh_dict_id h with
  | None => ROk (sc, None)
  | Some id =>
      match find (fun dd => d_id dd =? id) dicts with
      | None => RErr "DictNotProvided"
      | Some dd => ROk (scratch_init_from_dict sc dd, Some id)
      end
  end.

Definition new_state (h : frame_header) (sc : scratch) (n : Z) (ud : option Z) : fstate :=
  {| fr_header := h; fr_scratch := sc; fr_finished := false; fr_blocks := 0; fr_bytes_read := n; fr_checksum := None;
     fr_using_dict := ud |}.

Lemma fdec_reset_eq d src : fdec_reset d src =
  match frame_front src (fd_max_window d) with
  | inr _ => RErr "SkipFrame"
  | inl r =>
      let* (h, n, w, rest) := r in
      let* (sc, ud) := load_dict (fd_dicts d) h (reset_scratch d w) in
      ROk (fdec_with_state d (new_state h sc n ud), rest, reset_events d w)
  end.
Proof.
  unfold fdec_reset, load_dict, reset_scratch, reset_events.
  destruct (frame_front src (fd_max_window d)) as [[[[[h n] w] rest]|e|e]|?]; try reflexivity. cbn [rbind].
  destruct (fd_state d); destruct (fh_dict_id h) as [id|]; try reflexivity; destruct (find _ (fd_dicts d)); reflexivity.
Qed.

Lemma fdec_reset_ok d src d' rest evs : fdec_reset d src = ROk (d', rest, evs) ->
  exists h n w sc ud,
    frame_front src (fd_max_window d) = inl (ROk (h, n, w, rest)) /\
    load_dict (fd_dicts d) h (reset_scratch d w) = ROk (sc, ud) /\
    d' = fdec_with_state d (new_state h sc n ud) /\ evs = reset_events d w.
Proof.
  rewrite fdec_reset_eq. destruct (frame_front src (fd_max_window d)) as [[[[[h n] w] r]|e|e]|?]; try discriminate.
  cbn [rbind]. destruct (load_dict (fd_dicts d) h (reset_scratch d w)) as [[sc ud]|e|e] eqn:El; try discriminate.
  intros [= <- <- <-]. exists h, n, w, sc, ud. repeat split. exact El.
Qed.

Lemma load_dict_ok dicts h sc sc' ud : load_dict dicts h sc = ROk (sc', ud) ->
  sc' = sc \/ exists dd, In dd dicts /\ sc' = scratch_init_from_dict sc dd.
Proof.
  unfold load_dict. destruct (fh_dict_id h) as [id|]; [|intros [= <- _]; left; reflexivity].
  destruct (find _ dicts) as [dd|] eqn:Ef; [|discriminate]. intros [= <- _]. right. exists dd.
  split; [exact (proj1 (find_some _ _ Ef))|reflexivity].
Qed.

(** every table of a scratch area still has the alphabet bound it was created with *)
Definition scratch_alphabets_ok (sc : scratch) : Prop :=
  t_max_symbol (fs_of (sc_fse sc)) = MAX_OFFSET_CODE /\
  t_max_symbol (fs_ll (sc_fse sc)) = MAX_LITERAL_LENGTH_CODE /\
  t_max_symbol (fs_ml (sc_fse sc)) = MAX_MATCH_LENGTH_CODE /\
  t_max_symbol (ht_fse (sc_huf sc)) = 255.

Lemma scratch_new_alphabets w : scratch_alphabets_ok (scratch_new w).
Proof. repeat split. Qed.

Lemma init_from_dict_alphabets sc dd : scratch_alphabets_ok sc -> scratch_alphabets_ok (scratch_init_from_dict sc dd).
Proof. intros H. exact H. Qed.

(** the field-by-field reset of scratch.rs / decode_buffer.rs / fse_decoder.rs / huff0_decoder.rs gives exactly the
    state a new scratch area has *)
Theorem scratch_reset_eq_new sc w : scratch_alphabets_ok sc -> scratch_reset sc w = scratch_new w.
Proof.
  intros (A & B & C & D). unfold scratch_reset, scratch_new, huf_reset, huf_new, fse_scratch_reset, fse_scratch_new,
    fse_reset, db_reset. rewrite A, B, C, D. reflexivity.
Qed.

Lemma reset_scratch_eq_new d w :
  (forall s, fd_state d = Some s -> scratch_alphabets_ok (fr_scratch s)) -> reset_scratch d w = scratch_new w.
Proof.
  intros H. unfold reset_scratch. destruct (fd_state d) as [s|]; [|reflexivity]. apply scratch_reset_eq_new, H. reflexivity.
Qed.

Theorem reset_eq_fresh d src :
  (forall s, fd_state d = Some s -> scratch_alphabets_ok (fr_scratch s)) ->
  match fdec_reset d src,
        fdec_reset {| fd_state := None; fd_dicts := fd_dicts d; fd_max_window := fd_max_window d |} src with
  | ROk (d1, r1, _), ROk (d2, r2, _) => d1 = d2 /\ r1 = r2
  | RErr e1, RErr e2 => e1 = e2
  | RPanic e1, RPanic e2 => e1 = e2
  | _, _ => False
  end.
Proof.
  intros H. rewrite !fdec_reset_eq. cbn [fd_dicts fd_max_window].
  destruct (frame_front src (fd_max_window d)) as [[[[[h n] w] rest]|e|e]|?]; try reflexivity. cbn [rbind].
  rewrite (reset_scratch_eq_new d w H). change (reset_scratch _ w) with (scratch_new w).
  destruct (load_dict (fd_dicts d) h (scratch_new w)) as [[sc ud]|e|e]; try reflexivity. split; reflexivity.
Qed.
