(** C13: every complete weight list is accepted.  If the weights of all symbols (the last one included) form a complete
    code -- their Kraft sum is 2^M with M <= 11 --, the decoder accepts the list without the last weight, builds a table
    of width M and infers exactly the last weight. *)
Require Import Zrs.lib.RsPrelude Zrs.proofs.ModelFacts Zrs.model.BitIO Zrs.model.HufDec Zrs.model.HufEnc.
Require Import Zrs.proofs.C13_Canonical.
Open Scope Z_scope.

Lemma complete_weights_accepts ws lw M :
  Forall (fun w => 0 <= w <= MAX_MAX_NUM_BITS) ws -> 1 <= lw <= M -> M <= MAX_MAX_NUM_BITS ->
  0 < kraft ws -> kraft (ws ++ [lw]) = 2 ^ M ->
  accepts ws = true /\ highest_bit_set (kraft ws) = M /\ highest_bit_set (2 ^ M - kraft ws) = lw.
Proof.
  intros Hw Hlw HM Hpos Hk. rewrite kraft_snoc in Hk by lia.
  assert (Pl : 0 < 2 ^ (lw - 1)) by (apply Z.pow_pos_nonneg; lia).
  assert (E2M : 2 ^ M = 2 * 2 ^ (M - 1)) by (rewrite <- Z.pow_succ_r by lia; f_equal; lia).
  assert (Hle : 2 ^ (lw - 1) <= 2 ^ (M - 1)) by (apply Z.pow_le_mono_r; lia).
  assert (EM : highest_bit_set (kraft ws) = M).
  { unfold highest_bit_set. rewrite (Z.log2_unique (kraft ws) (M - 1)); [lia|lia|]. replace (Z.succ (M - 1)) with M by lia. lia. }
  assert (Elo : 2 ^ M - kraft ws = 2 ^ (lw - 1)) by lia.
  split; [|split; [exact EM|rewrite Elo; unfold highest_bit_set; rewrite Z.log2_pow2; lia]].
  unfold accepts. cbv zeta. rewrite EM, Elo. unfold is_pow2. rewrite Z.log2_pow2, Z.eqb_refl by lia.
  assert (forallb (fun w => w <=? MAX_MAX_NUM_BITS) ws = true) as -> by (apply forallb_forall; rewrite Forall_forall in Hw; intros w Hin; specialize (Hw w Hin); lia).
  cbn [andb]. lia.
Qed.

Theorem complete_weights_are_accepted ws lw M :
  Forall (fun w => 0 <= w <= MAX_MAX_NUM_BITS) ws -> 1 <= lw <= M -> M <= MAX_MAX_NUM_BITS ->
  0 < kraft ws -> kraft (ws ++ [lw]) = 2 ^ M ->
  exists dec bits ranks idxs, build_table_from_weights ws = ROk (dec, M, bits, ranks, idxs) /\
    bits = map (fun w => if 0 <? w then M + 1 - w else 0) ws ++ [M + 1 - lw].
Proof.
  intros Hw Hlw HM Hpos Hk. destruct (complete_weights_accepts ws lw M Hw Hlw HM Hpos Hk) as (Ha & EM & Elw).
  assert (Hnn : Forall (fun w => 0 <= w) ws) by (eapply Forall_impl; [|exact Hw]; intros a Ha'; cbv beta in *; lia).
  destruct (accepted_table_blocks ws Hnn Ha) as (_ & _ & _ & _ & dec & ranks & idxs & _ & E & _). rewrite EM, Elw in E.
  eexists dec, _, ranks, idxs. split; [exact E|]. rewrite map_app. cbn [map]. assert (0 <? lw = true) as -> by lia. reflexivity.
Qed.
