(** C02 / C12: obligation O1 of the Fastest round trip is met by the modelled normaliser: for the sequences of any block,
    the three distributions [norm_model] computes satisfy the side conditions of the sequences-section theorem. *)
Require Import Zrs.lib.RsPrelude Zrs.lib.ListFacts Zrs.gen.Generated Zrs.model.FseDec Zrs.model.BlockDec.
Require Import Zrs.model.SeqEnc Zrs.model.FseEnc Zrs.model.FseNorm Zrs.model.SeqSection Zrs.model.SeqNorm.
Require Import Zrs.proofs.C14_Tables Zrs.proofs.C12_SeqStream Zrs.proofs.C12_Desc.
Require Import Zrs.proofs.C12_Norm Zrs.proofs.C12_NormTotal Zrs.proofs.C12_TableWf Zrs.proofs.C12_Covers.
Open Scope Z_scope.

Lemma count_code_nonneg c codes : 0 <= count_code c codes.
Proof. induction codes as [|x t IH]; cbn [count_code]; [lia|]. destruct (x =? c); lia. Qed.
Lemma count_code_pos c codes : In c codes -> 1 <= count_code c codes.
Proof.
  induction codes as [|x t IH]; intros Hin; [contradiction|]. cbn [count_code]. pose proof (count_code_nonneg c t).
  destruct Hin as [->|Hin]; [rewrite Z.eqb_refl; lia|specialize (IH Hin); destruct (x =? c); lia].
Qed.
Lemma max_code_ge codes c : In c codes -> c <= max_code codes.
Proof. induction codes as [|x t IH]; intros Hin; [contradiction|]. cbn [max_code fold_right]. fold (max_code t). destruct Hin as [->|Hin]; [lia|specialize (IH Hin); lia]. Qed.
Lemma max_code_in codes : codes <> [] -> Forall (fun c => 0 <= c) codes -> In (max_code codes) codes.
Proof.
  induction codes as [|x t IH]; intros Hne Hnn; [congruence|]. inversion Hnn; subst. cbn [max_code fold_right]. fold (max_code t).
  destruct t as [|y t'].
  - cbn. left. lia.
  - specialize (IH ltac:(discriminate) ltac:(assumption)). destruct (Z.max_spec x (max_code (y :: t'))) as [(A & ->)|(A & ->)]; [right; exact IH|left; reflexivity].
Qed.
Lemma max_code_nonneg codes : 0 <= max_code codes.
Proof. induction codes as [|x t IH]; cbn [max_code fold_right]; [lia|]. fold (max_code t). lia. Qed.

Lemma code_hist_length codes : length (code_hist codes) = S (Z.to_nat (max_code codes)).
Proof. unfold code_hist. rewrite map_length, seq_length. reflexivity. Qed.

Lemma code_hist_nth codes c : 0 <= c <= max_code codes -> nth (Z.to_nat c) (code_hist codes) 0 = count_code c codes.
Proof.
  intros H. unfold code_hist. set (g := fun k : nat => count_code (Z.of_nat k) codes).
  rewrite (nth_indep _ 0 (g 0%nat)) by (rewrite map_length, seq_length; lia).
  rewrite map_nth, seq_nth by lia. unfold g. cbn [Nat.add]. rewrite Z2Nat.id by lia. reflexivity.
Qed.

(** the histogram runs up to the largest code that occurs, so its last entry is positive, as the normaliser requires *)
Lemma code_hist_props codes M : codes <> [] -> Forall (fun c => 0 <= c <= M) codes ->
  let h := code_hist codes in
  length h = S (Z.to_nat (max_code codes)) /\ Z.of_nat (length h) <= M + 1 /\ Forall (fun c => 0 <= c) h /\ 0 < last h 0 /\
  (forall c, In c codes -> 1 <= nth (Z.to_nat c) h 0).
Proof.
  intros Hne Hr h. unfold h.
  assert (Hnn : Forall (fun c => 0 <= c) codes) by (eapply Forall_impl; [|exact Hr]; cbn; intros; lia).
  pose proof (max_code_in codes Hne Hnn) as Hmi. pose proof (max_code_nonneg codes) as Hm0.
  assert (HmM : max_code codes <= M) by (rewrite Forall_forall in Hr; specialize (Hr _ Hmi); lia).
  pose proof (code_hist_length codes) as HL.
  split; [exact HL|]. split; [lia|].
  split; [apply Forall_forall; intros x Hx; apply in_map_iff in Hx as (k & <- & _); apply count_code_nonneg|].
  split.
  - rewrite last_is_nth by (intros E; rewrite E in HL; discriminate HL).
    rewrite HL. replace (S (Z.to_nat (max_code codes)) - 1)%nat with (Z.to_nat (max_code codes)) by lia.
    rewrite code_hist_nth by lia. pose proof (count_code_pos _ _ Hmi). lia.
  - intros c Hc. pose proof (max_code_ge codes c Hc). rewrite Forall_forall in Hnn. specialize (Hnn c Hc).
    rewrite code_hist_nth by lia. apply count_code_pos. exact Hc.
Qed.

(** a single code: the zero-bit avoidance gives the second slot the other half *)
Lemma norm_counts_single c max_log : 0 < c -> 5 <= max_log -> norm_counts [c] max_log true = ROk (5, [16; 16]).
Proof.
  intros Hc Hml. unfold norm_counts. cbn [length Nat.max Nat.sub zeros app fold_left map].
  (* the smallest positive count is [c] itself, so the scaled counts are [1; 0] whatever [c] is *)
  replace (0 <? c) with true by lia. rewrite Z.eqb_refl, orb_true_r. cbn [andb].
  replace (c =? 0) with false by lia. replace (c - (c - 1)) with 1 by lia.
  (* their sum is 1, so the table log is the minimum 5; the rest is evaluation *)
  cbv zeta. replace (Z.min _ max_log) with 5 by (rewrite Z.min_l; [reflexivity|exact Hml]).
  vm_compute. reflexivity.
Qed.

Lemma dist_okb_complete al probs : dist_ok al probs -> dist_okb al probs = true.
Proof.
  intros (A & B & C). unfold dist_okb. apply andb_true_intro. split; [apply andb_true_intro; split|].
  - apply forallb_forall. intros p Hp. rewrite Forall_forall in A. specialize (A p Hp). lia.
  - lia.
  - destruct (Z.eqb_spec (last probs 1) 0); [contradiction|reflexivity].
Qed.
Lemma table_wf_b_complete D : table_wf D -> table_wf_b D = true.
Proof.
  intros (A & B & C). unfold table_wf_b. apply andb_true_intro. split; [apply andb_true_intro; split|]; try lia.
  apply forallb_forall. intros e He. rewrite Forall_forall in B. specialize (B e He). lia.
Qed.
Lemma covers_b_complete D s : covers D s -> covers_b D s = true.
Proof.
  intros (A & B). unfold covers_b. apply andb_true_intro. split.
  - destruct (min_base (t_decode D) 0 s None); [reflexivity|congruence].
  - apply forallb_forall. intros n Hn. apply in_seq in Hn. specialize (B (Z.of_nat n) ltac:(lia)).
    destruct (find_entry _ _ _); [reflexivity|congruence].
Qed.

Lemma code_hist_normalised codes max_log ms :
  codes <> [] -> Forall (fun c => 0 <= c <= ms) codes -> 8 <= max_log <= 9 -> 1 <= ms <= 255 ->
  exists al probs, norm_counts (code_hist codes) max_log true = ROk (al, probs) /\ dist_ok al probs /\ 5 <= al <= max_log /\
    Z.of_nat (length probs) <= ms + 1 /\ (length probs <= 256)%nat /\ Forall (fun p => 0 <= p) probs /\ zsum probs = 2 ^ al /\
    (forall c, In c codes -> (Z.to_nat c < length probs)%nat /\ 1 <= nth (Z.to_nat c) probs 0).
Proof.
  intros Hne Hr Hml Hms.
  destruct (code_hist_props codes ms Hne Hr) as (HL & HLm & Hnn & Hlast & Hocc).
  set (h := code_hist codes) in *.
  destruct (Nat.eq_dec (length h) 1) as [E1|E1].
  - (* only code 0 occurs *)
    destruct h as [|c0 [|]] eqn:Eh; cbn in E1; try lia.
    assert (Hc0 : 0 < c0) by (cbn in Hlast; exact Hlast).
    exists 5, [16; 16]. rewrite norm_counts_single by lia.
    assert (Hm0 : max_code codes = 0) by (pose proof (max_code_nonneg codes); cbn in HL; lia).
    split; [reflexivity|]. split; [apply dist_okb_ok; vm_compute; reflexivity|]. split; [lia|].
    split; [cbn; lia|]. split; [cbn; lia|]. split; [repeat constructor; lia|]. split; [reflexivity|].
    intros c Hc. pose proof (max_code_ge codes c Hc). rewrite Forall_forall in Hr. specialize (Hr c Hc).
    assert (c = 0) by lia. subst c. cbn. lia.
  - assert (H2 : (2 <= length h <= 256)%nat) by (rewrite HL in *; lia).
    destruct (norm_counts_total h max_log ltac:(lia) Hnn Hlast H2) as (al & probs & En).
    destruct (norm_counts_normalised h max_log al probs ltac:(lia) Hnn Hlast ltac:(lia) En) as (D1 & D2 & D3 & D4 & D5 & D6).
    exists al, probs. split; [exact En|]. split; [exact D1|]. split; [exact D2|]. split; [lia|]. split; [lia|]. split; [exact D4|]. split; [exact D5|].
    intros c Hc. pose proof (max_code_ge codes c Hc). rewrite Forall_forall in Hr. pose proof (Hr c Hc).
    split; [rewrite D3, HL; lia|]. apply D6. specialize (Hocc c Hc). lia.
Qed.

(** the codes are given as a projection [f] of the coded sequences, as [norm_model] takes them *)
Lemma dist_from_ok {A} (f : A -> Z) (qs : list A) max_log ms :
  qs <> [] -> Forall (fun q => 0 <= f q <= ms) qs -> 8 <= max_log <= 9 -> 1 <= ms <= 255 ->
  exists D, build_table ms (dist_from (map f qs) max_log) = ROk D /\ dist_side_b (dist_from (map f qs) max_log) max_log ms = true /\
            table_wf_b D = true /\ (forall q, In q qs -> covers_b D (f q) = true).
Proof.
  intros Hqne Hq Hml Hms.
  assert (Hne : map f qs <> []) by (destruct qs; [congruence|discriminate]).
  assert (Hr : Forall (fun c => 0 <= c <= ms) (map f qs)) by (apply Forall_map; exact Hq).
  destruct (code_hist_normalised _ max_log ms Hne Hr Hml Hms) as (al & probs & En & Dok & Hal & Hlen & H256 & Hpn & Hsum & Hcodes).
  unfold dist_from. rewrite En.
  destruct (built_table_covers al probs ms ltac:(lia) Hpn Hsum H256 Hlen) as (D & Eb & Hcov).
  exists D. unfold build_table. cbn [fst snd]. split; [exact Eb|]. split; [|split].
  - unfold dist_side_b. cbn [fst snd]. rewrite (dist_okb_complete _ _ Dok). cbn [andb].
    apply andb_true_intro. split; [apply andb_true_intro; split|]; lia.
  - apply table_wf_b_complete. eapply built_table_is_well_formed; [|exact Eb]. lia.
  - intros q Hin. apply (in_map f) in Hin. destruct (Hcodes _ Hin) as (C1 & C2). apply covers_b_complete.
    rewrite Forall_forall in Hr. pose proof (Hr _ Hin). specialize (Hcov (Z.to_nat (f q)) C1 C2). rewrite Z2Nat.id in Hcov by lia. exact Hcov.
Qed.

Definition codes_in_range (q : cseq) : Prop :=
  0 <= c_ll q <= MAX_LITERAL_LENGTH_CODE /\ 0 <= c_of q <= MAX_OFFSET_CODE /\ 0 <= c_ml q <= MAX_MATCH_LENGTH_CODE.

Lemma to_cseq_codes s : seq_range_b s = true -> exists q, to_cseq s = ROk q /\ codes_in_range q.
Proof.
  unfold seq_range_b. intros Hr.
  assert (R : 0 <= sq_ll s <= 131071 /\ 3 <= sq_ml s <= 131074 /\ 1 <= sq_of s < 2 ^ 32) by lia.
  destruct R as (Rl & Rm & Ro).
  destruct (ll_roundtrip (sq_ll s) Rl) as (cl & al & nl & bl & El & Ll & Cl & _).
  destruct (ml_roundtrip (sq_ml s) Rm) as (cm & am & nm & bm & Em & Lm & Cm & _).
  pose proof (encode_offset_spec (sq_of s) Ro) as Ho.
  unfold to_cseq. rewrite El, Em. cbn [rbind].
  destruct (encode_offset (sq_of s)) as [[co ao] no]. destruct Ho as (_ & Co & _).
  eexists. split; [reflexivity|]. unfold codes_in_range, MAX_LITERAL_LENGTH_CODE, MAX_OFFSET_CODE, MAX_MATCH_LENGTH_CODE.
  cbn [c_ll c_ml c_of]. lia.
Qed.

Lemma map_res_codes seqs : forallb seq_range_b seqs = true ->
  exists qs, map_res to_cseq seqs = ROk qs /\ Forall codes_in_range qs /\ length qs = length seqs.
Proof.
  induction seqs as [|s t IH]; intros Hr; [exists []; repeat split; constructor|].
  cbn [forallb] in Hr. apply andb_prop in Hr as [Hs Ht].
  destruct (to_cseq_codes s Hs) as (q & Eq & Hq). destruct (IH Ht) as (r & Er & Fr & Lr).
  exists (q :: r). cbn [map_res]. rewrite Eq, Er. cbn [rbind length].
  split; [reflexivity|]. split; [constructor; assumption|lia].
Qed.

Theorem norm_model_meets_O1 seqs : seqs <> [] -> forallb seq_range_b seqs = true -> Z.of_nat (length seqs) <= 98047 ->
  let '(dl, do, dm) := norm_model seqs in section_hyps_b dl do dm seqs = true.
Proof.
  intros Hne Hr _. unfold norm_model. destruct (map_res_codes seqs Hr) as (qs & Eq & Hc & Hl). rewrite Eq.
  assert (Hqne : qs <> []) by (destruct seqs; [congruence|destruct qs; discriminate]).
  destruct (dist_from_ok c_ll qs LL_MAX_LOG MAX_LITERAL_LENGTH_CODE Hqne (Forall_impl _ (fun q H => proj1 H) Hc))
    as (Dll & B1 & S1 & W1 & C1); [unfold LL_MAX_LOG; lia|unfold MAX_LITERAL_LENGTH_CODE; lia|].
  destruct (dist_from_ok c_of qs OF_MAX_LOG MAX_OFFSET_CODE Hqne (Forall_impl _ (fun q H => proj1 (proj2 H)) Hc))
    as (Dof & B2 & S2 & W2 & C2); [unfold OF_MAX_LOG; lia|unfold MAX_OFFSET_CODE; lia|].
  destruct (dist_from_ok c_ml qs ML_MAX_LOG MAX_MATCH_LENGTH_CODE Hqne (Forall_impl _ (fun q H => proj2 (proj2 H)) Hc))
    as (Dml & B3 & S3 & W3 & C3); [unfold ML_MAX_LOG; lia|unfold MAX_MATCH_LENGTH_CODE; lia|].
  unfold section_hyps_b. rewrite Eq, B1, B2, B3, S1, S2, S3, W1, W2, W3. cbn [andb]. rewrite Hr, andb_true_r.
  destruct seqs as [|s0 t0]; [congruence|]. cbn [negb]. rewrite andb_true_r.
  apply forallb_forall. intros q Hq. rewrite (C1 q Hq), (C3 q Hq), (C2 q Hq). reflexivity.
Qed.
