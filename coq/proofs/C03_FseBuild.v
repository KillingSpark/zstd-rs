(** C03: building an FSE decoding table from a serialized description never panics, for any bytes and any table-size limit
    up to 9: what [read_probabilities] accepts is a normalised distribution, and the general table theorem applies. *)
Require Import Zrs.lib.RsPrelude Zrs.lib.ResFacts Zrs.model.FseDec Zrs.model.FseEnc.
Require Import Zrs.proofs.C03_Desc Zrs.proofs.C12_General.
Open Scope Z_scope.

(** the invariant of an FSE table held in the decoder's scratch space: never built, or built from a normalised
    distribution -- in which case every entry keeps every state transition inside the table *)
Definition fse_range (t : fse_table) : Prop :=
  1 <= t_acc_log t /\ Z.of_nat (length (t_decode t)) = 2 ^ t_acc_log t /\
  forall e, In e (t_decode t) ->
    0 <= e_bits e <= t_acc_log t /\ 0 <= e_base e /\ e_base e + 2 ^ e_bits e <= 2 ^ t_acc_log t /\ 0 <= e_sym e <= t_max_symbol t.
Definition fse_good (t : fse_table) : Prop := t_max_symbol t <= 255 /\ (t_acc_log t = 0 \/ fse_range t).

Lemma fse_new_good ms : ms <= 255 -> fse_good (fse_new ms).
Proof. intros H. split; [exact H|left; reflexivity]. Qed.

Lemma build_decoding_table_good ms al probs :
  5 <= al <= 9 -> Forall (fun p => -1 <= p) probs -> weight probs = 2 ^ al -> Z.of_nat (length probs) <= ms + 1 -> ms <= 255 ->
  exists dec counter, build_decoding_table ms al probs = ROk (dec, counter) /\
    fse_range {| t_max_symbol := ms; t_decode := dec; t_acc_log := al; t_probs := probs; t_counter := counter |}.
Proof.
  intros Hal Hp Hw Hlen Hms.
  destruct (general_table al probs ms Hal Hp Hw ltac:(lia) Hlen) as (D & Eb & Hr & Hl & _).
  pose proof (general_table_symbols al probs ms D Hal Hp Hw ltac:(lia) Hlen Eb) as Hs.
  unfold fse_build_from_probabilities in Eb. destruct (Z.eqb_spec al 0); [lia|]. cbn [t_max_symbol fse_new] in Eb.
  destruct (build_decoding_table ms al probs) as [[dec counter]|e|e] eqn:Ebd; cbn [rbind] in Eb; try discriminate.
  injection Eb as <-. cbn [t_decode] in Hr, Hl, Hs. exists dec, counter. split; [reflexivity|].
  unfold fse_range. cbn [t_acc_log t_decode t_max_symbol]. split; [lia|]. split; [exact Hl|].
  intros e He. specialize (Hr e He). specialize (Hs e He). lia.
Qed.

Lemma build_from_probabilities_good t al probs :
  t_max_symbol t <= 255 -> 5 <= al <= 9 -> Forall (fun p => -1 <= p) probs -> weight probs = 2 ^ al ->
  Z.of_nat (length probs) <= t_max_symbol t + 1 ->
  exists D, fse_build_from_probabilities t al probs = ROk D /\ fse_range D /\ t_max_symbol D = t_max_symbol t.
Proof.
  intros Hms Hal Hp Hw Hlen. unfold fse_build_from_probabilities. destruct (Z.eqb_spec al 0); [lia|].
  destruct (build_decoding_table_good (t_max_symbol t) al probs Hal Hp Hw Hlen Hms) as (dec & counter & -> & R).
  eexists. split; [reflexivity|]. split; [exact R|reflexivity].
Qed.

Theorem fse_build_decoder_good t source max_log :
  t_max_symbol t <= 255 -> max_log <= 9 ->
  match fse_build_decoder t source max_log with
  | ROk (D, bytes) => fse_good D /\ fse_range D /\ t_max_symbol D = t_max_symbol t /\ 0 <= bytes <= Z.of_nat (length source)
  | RErr _ => True
  | RPanic _ => False
  end.
Proof.
  intros Hms Hml. unfold fse_build_decoder.
  eapply post_bind; [apply read_probabilities_post|]. intros [[al probs] bytes] (Hal & Hp & Hw & Hlen & Hb).
  destruct (build_decoding_table_good (t_max_symbol t) al probs ltac:(lia) Hp Hw Hlen Hms) as (dec & counter & -> & R).
  split; [split; [exact Hms|right; exact R]|]. split; [exact R|]. split; [reflexivity|exact Hb].
Qed.
