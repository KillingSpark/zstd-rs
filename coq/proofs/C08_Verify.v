(** C08: for every frame (any byte string the decoder decodes), after the whole frame has been decoded by one call and
    the output is taken by ANY drain program, the hasher has received exactly the delivered bytes, and once the buffer
    is empty these are the whole content of the frame. *)
Require Import Zrs.lib.RsPrelude Zrs.model.BlockDec Zrs.model.FrameDec.
Require Import Zrs.proofs.C06_Drain Zrs.proofs.C05_Block Zrs.proofs.C06_Frame Zrs.proofs.C11_Reset Zrs.proofs.C08_Hash.
Require Import Zrs.proofs.C02_Roundtrip.
Require Import Zrs.model.FrameEnc Zrs.model.SeqNorm Zrs.model.LitComp.
Require Import Zrs.proofs.C02_Closed.
Open Scope Z_scope.

Theorem hashed_is_frame_content St (sstep : St -> Z -> sink_resp * St) d frame d1 rest evs d2 rest' fin s2 ops st :
  bytes_ok frame = true -> Forall dict_ok (fd_dicts d) ->
  fdec_reset d frame = ROk (d1, rest, evs) ->
  fdec_decode_blocks d1 rest SAll = ROk (d2, rest', fin) -> fd_state d2 = Some s2 ->
  let '(l, d', st') := drain_run St sstep d2 st ops in
  exists s', fd_state d' = Some s' /\ fr_checksum s' = fr_checksum s2 /\
    l ++ db_all (st_buf s') = buf_content s2 /\ fdec_hashed d' = l /\
    (db_all (st_buf s') = [] -> fdec_hashed d' = buf_content s2).
Proof.
  intros B HD R D S2.
  destruct (fdec_reset_spec _ _ _ _ _ B HD R) as (s1 & hd & Hs1 & Ok1 & Hsrc & _ & _ & Hh1 & Hw1 & _).
  assert (Br : bytes_ok rest = true). { rewrite Hsrc in B. apply bytes_ok_app in B. apply B. }
  destruct (decode_blocks_spec _ _ _ _ _ _ _ Hs1 Ok1 Br D) as (s2' & Hs2 & Ok2 & _ & _ & (_ & Mw & Mh) & _).
  assert (s2' = s2) by congruence. subst s2'.
  assert (Hw2 : 0 <= db_window (st_buf s2)) by (rewrite Mw; exact Hw1).
  assert (Hh2 : fdec_hashed d2 = []). { unfold fdec_hashed. rewrite S2, Mh, Hh1. reflexivity. }
  pose proof (drain_run_spec St sstep ops d2 s2 st S2 Ok2 Hw2) as T.
  pose proof (hash_is_delivered St sstep ops d2 s2 st S2 Ok2 Hw2) as Hd.
  destruct (drain_run St sstep d2 st ops) as [[l d'] st'].
  destruct T as (s' & Hs' & (Sb & _ & Hall & _)).
  exists s'. rewrite Hh2 in Hd. cbn [app] in Hd.
  split; [exact Hs'|]. split; [apply Sb|]. split; [exact Hall|]. split; [exact Hd|].
  intros E. rewrite E, app_nil_r in Hall. rewrite Hd. exact Hall.
Qed.

(** a frame that decodes completely to [data] and stores the hash of [data] (the conclusion of the C02 frame theorems,
    hashing on): drained by any program until the buffer is empty, the hasher has received exactly [data], and the
    stored checksum is the 32-bit hash of exactly those bytes *)
Theorem decoded_frame_checksum_verifies St (sstep : St -> Z -> sink_resp * St) h frame data :
  bytes_ok frame = true -> frame_decodes_to frame data (Some h) ->
  exists d1 rest evs d2,
    fdec_reset fdec_new frame = ROk (d1, rest, evs) /\ fdec_decode_blocks d1 rest SAll = ROk (d2, [], true) /\
    forall ops st, let '(l, d', st') := drain_run St sstep d2 st ops in
      exists s', fd_state d' = Some s' /\ fdec_hashed d' = l /\ l ++ db_all (st_buf s') = data /\
        (db_all (st_buf s') = [] -> fdec_hashed d' = data /\ fr_checksum s' = Some (le_val (h (fdec_hashed d')))).
Proof.
  intros B (d1 & rest & evs & s1 & d2 & s2 & R & S1 & D & S2 & Cont & Ck).
  exists d1, rest, evs, d2. split; [exact R|]. split; [exact D|].
  intros ops st.
  pose proof (hashed_is_frame_content St sstep fdec_new frame d1 rest evs d2 [] true s2 ops st B (Forall_nil _) R D S2) as T.
  destruct (drain_run St sstep d2 st ops) as [[l d'] st'].
  destruct T as (s' & Hs' & Hck & Hall & Hd & He).
  exists s'. split; [exact Hs'|]. split; [exact Hd|]. split; [rewrite <- Cont; exact Hall|].
  intros E. specialize (He E). split; [rewrite He; exact Cont|]. rewrite Hck, Ck, He, Cont. reflexivity.
Qed.

(** the compressor's frames (level Fastest, hashing on, every input / fragmentation / reuse history of the closed C02
    theorem) *)
Theorem compressor_frame_checksum_verifies St (sstep : St -> Z -> sink_resp * St) slice wsize h cs data script frame cs' r' :
  Cinit2 _ cs -> 1 <= Z.of_nat slice <= 131072 -> 1 <= wsize <= 2 ^ 27 ->
  (forall x, length (h x) = 4%nat) -> bytes_ok frame = true ->
  compress_frame (cst2 (option codes_t)) (cblock2 norm_model _ litenc_model) (cskip2 _) (cfallback2 _ None) (creset2 _ None) LFastest slice wsize (Some h) cs
    {| rd_data := data; rd_script := script |} = ROk (frame, cs', r') ->
  exists d1 rest evs d2,
    fdec_reset fdec_new frame = ROk (d1, rest, evs) /\ fdec_decode_blocks d1 rest SAll = ROk (d2, [], true) /\
    forall ops st, let '(l, d', st') := drain_run St sstep d2 st ops in
      exists s', fd_state d' = Some s' /\ fdec_hashed d' = l /\ l ++ db_all (st_buf s') = data /\
        (db_all (st_buf s') = [] -> fdec_hashed d' = data /\ fr_checksum s' = Some (le_val (h (fdec_hashed d')))).
Proof.
  intros CI Hs Hw Hh B C. apply (decoded_frame_checksum_verifies St sstep h frame data B).
  apply (fastest_roundtrip_closed slice wsize (Some h) cs data script frame cs' r' CI Hs Hw); [|exact C].
  intros h0 x [= <-]. apply Hh.
Qed.
