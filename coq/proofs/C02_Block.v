(** C02 / C16: a compressed block with raw literals, as the compressor lays it out, is decoded by [decompress_block]
    into exactly "execute the coded sequences over the coded literals": the literals header, the literal bytes, the
    sequence count, the mode byte and the sequences section are each read back as written.  The instance of the block
    theorem of C02_BlockGen.v for the raw literals header and raw literal bytes. *)
Require Import Zrs.lib.RsPrelude Zrs.proofs.ModelFacts Zrs.gen.Generated Zrs.model.Headers Zrs.model.FseDec Zrs.model.BlockDec.
Require Import Zrs.model.SeqSection Zrs.model.BlockEnc.
Require Import Zrs.proofs.C02_BlockGen.
Open Scope Z_scope.

Lemma raw_lit_header_parse n rest : 0 <= n < 2 ^ 20 ->
  lit_header_parse (raw_lit_header n ++ rest) = ROk (3, 0, n, None, None).
Proof.
  intros Hn. unfold raw_lit_header. cbn [app]. unfold lit_header_parse.
  remember (12 + 16 * (n mod 16)) as r0 eqn:E0.
  assert (M4 : r0 mod 4 = 0) by lia.
  assert (S4 : (r0 / 4) mod 4 = 3) by lia.
  unfold header_bytes_needed, literals_section_type. cbv zeta.
  rewrite Z.mod_mod by lia. rewrite M4. change (2 ^ 2) with 4. rewrite S4.
  cbn [Z.eqb Pos.eqb orb rbind]. cbn [length].
  destruct (Z.ltb_spec (Z.of_nat (S (S (S (length rest))))) 3) as [H|_]; [lia|].
  unfold znth. change (Z.to_nat 1) with 1%nat. change (Z.to_nat 2) with 2%nat. cbn [nth].
  f_equal. f_equal. f_equal. f_equal. lia.
Qed.

(** [C14_Headers.seqnum_layout] under the name the exported statements use *)
Definition spec_seqnum_bytes (n : Z) : list Z :=
  if n <=? 127 then [n] else if n <=? 32511 then [n / 256 + 128; n mod 256]
  else [255; (n - 32512) mod 256; (n - 32512) / 256].

Theorem raw_literal_block_decodes lits dl do dm seqs body sc :
  block_raw_lits lits dl do dm seqs = ROk body ->
  zlen lits <= MAX_BLOCK_SIZE -> Z.of_nat (length seqs) <= 98047 ->
  (seqs <> [] -> section_hyps_b dl do dm seqs = true) ->
  t_max_symbol (fs_ll (sc_fse sc)) = MAX_LITERAL_LENGTH_CODE -> t_max_symbol (fs_of (sc_fse sc)) = MAX_OFFSET_CODE ->
  t_max_symbol (fs_ml (sc_fse sc)) = MAX_MATCH_LENGTH_CODE ->
  decompress_block (zlen body) sc body =
    match seqs with
    | [] => ROk {| sc_huf := sc_huf sc; sc_fse := sc_fse sc; sc_buf := db_push (sc_buf sc) lits; sc_hist := sc_hist sc |}
    | _ =>
        match build_table MAX_LITERAL_LENGTH_CODE dl, build_table MAX_MATCH_LENGTH_CODE dm, build_table MAX_OFFSET_CODE do with
        | ROk Dll, ROk Dml, ROk Dof =>
            let* (buf, hist) := execute_sequences seqs lits (sc_buf sc) (sc_hist sc) in
            ROk {| sc_huf := sc_huf sc; sc_fse := C12_SeqStream.sc Dll Dml Dof; sc_buf := buf; sc_hist := hist |}
        | _, _, _ => RErr "tables"
        end
    end.
Proof.
  intros Hb Hl Hs Hh M1 M2 M3.
  assert (Hl0 : 0 <= zlen lits < 2 ^ 20) by (unfold zlen, MAX_BLOCK_SIZE in *; lia).
  (* the body is the raw literals followed by a sequences part *)
  assert (exists sp, seq_part dl do dm seqs = ROk sp /\ body = raw_lit_header (zlen lits) ++ lits ++ sp) as (sp & Hsp & ->).
  { unfold block_raw_lits, seq_part in *. destruct seqs; [eexists; split; [reflexivity|congruence]|].
    destruct (encode_seqnum _ _) as [[u sn]|e|e]; cbn [rbind] in *; try discriminate.
    destruct (section_bytes _ _ _ _) as [sec|e|e]; cbn [rbind] in *; try discriminate.
    eexists; split; [reflexivity|congruence]. }
  apply (block_decodes (raw_lit_header (zlen lits)) lits 0 (zlen lits) None None sc (sc_huf sc) lits); try assumption.
  - intros rest. apply raw_lit_header_parse, Hl0.
  - reflexivity.
  - split; [reflexivity|exact Hl].
  - apply raw_literals_decode.
Qed.
