(** C08: the hasher state of the decoder as a function of the calls made. *)
Require Import Zrs.lib.RsPrelude Zrs.lib.ListFacts Zrs.model.BlockDec Zrs.model.FrameDec.
Require Import Zrs.proofs.C06_Drain Zrs.proofs.C05_Block Zrs.proofs.C06_Frame Zrs.proofs.C07_Reuse Zrs.proofs.C11_Reset.

Lemma reset_hashed_nil d src d' rest evs : fdec_reset d src = ROk (d', rest, evs) -> fdec_hashed d' = [].
Proof.
  intros H. destruct (fdec_reset_ok _ _ _ _ _ H) as (h & n & w & sc & ud & _ & Hl & -> & _).
  unfold fdec_hashed, st_buf. cbn [fdec_with_state fd_state new_state fr_scratch].
  destruct (load_dict_ok _ _ _ _ _ Hl) as [->|(dd & _ & ->)]; cbn [scratch_init_from_dict sc_buf db_hashed_rev];
    rewrite reset_scratch_buf; reflexivity.
Qed.

Lemma reset_hash_empty d src d' rest evs :
  bytes_ok src = true -> Forall dict_ok (fd_dicts d) -> fdec_reset d src = ROk (d', rest, evs) ->
  fdec_hashed d' = [].
Proof. intros _ _. apply reset_hashed_nil. Qed.

Lemma decode_does_not_hash d src strat d' rest fin s :
  fd_state d = Some s -> st_ok s -> bytes_ok src = true ->
  fdec_decode_blocks d src strat = ROk (d', rest, fin) -> fdec_hashed d' = fdec_hashed d.
Proof.
  intros Hd Hs B H.
  destruct (decode_blocks_spec _ _ _ _ _ _ _ Hd Hs B H) as (s' & Hd' & _ & _ & _ & (_ & _ & M) & _).
  unfold fdec_hashed. rewrite Hd, Hd'. rewrite M. reflexivity.
Qed.

Lemma hash_is_delivered St (sstep : St -> Z -> sink_resp * St) ops d s st :
  fd_state d = Some s -> st_ok s -> 0 <= db_window (st_buf s) ->
  let '(l, d', st') := drain_run St sstep d st ops in fdec_hashed d' = fdec_hashed d ++ l.
Proof.
  intros Hd Hs Hw. pose proof (drain_run_spec St sstep ops d s st Hd Hs Hw) as T.
  destruct (drain_run St sstep d st ops) as [[l d'] st']. destruct T as (s' & Hd' & (_ & _ & _ & Hh)).
  unfold fdec_hashed. rewrite Hd, Hd'. unfold db_hashed in Hh. rewrite !rev'_rev. exact Hh.
Qed.
