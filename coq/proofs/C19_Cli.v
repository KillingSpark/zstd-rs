(** C19: decision logic of the command-line tool *)
Require Import Zrs.lib.RsPrelude Zrs.model.FrameEnc Zrs.model.Cli.
Open Scope Z_scope.

Theorem level_total opt : (exists l, cli_map_level opt = CliLevel l) \/ cli_map_level opt = CliRefuse.
Proof. unfold cli_map_level. destruct (_ =? 0); [left; eexists; reflexivity|]. destruct (_ =? 1); [left; eexists; reflexivity|right; reflexivity]. Qed.

Theorem level_absent_is_implemented : cli_map_level None = CliLevel LFastest.
Proof. reflexivity. Qed.

Theorem level_spec l : cli_map_level (Some l) =
  if l =? 0 then CliLevel LUncompressed else if l =? 1 then CliLevel LFastest else CliRefuse.
Proof. reflexivity. Qed.

(** a refusal never touches the output; an output is only created on the way to writing a frame *)
Theorem refusal_creates_nothing opt ex : In EvFail (cli_compress_events opt ex) -> ~ In EvCreateOutput (cli_compress_events opt ex).
Proof.
  unfold cli_compress_events. destruct (cli_map_level opt); [destruct ex|]; cbn; intros H C;
    repeat (destruct H as [H|H]; try discriminate); repeat (destruct C as [C|C]; try discriminate); auto.
Qed.

Lemma last_dot_app s : forall pos found t, last_dot (s ++ t) pos found = last_dot t (pos + length s) (last_dot s pos found).
Proof.
  induction s as [|c s IH]; intros pos found t; cbn [app last_dot length]; [rewrite Nat.add_0_r; reflexivity|].
  rewrite IH. f_equal. lia.
Qed.

(** default names round trip: decompress's default output for the archive compress creates by default is the
    original name (for every non-empty name) *)
Theorem default_names_roundtrip name : name <> [] -> file_stem (add_extension name zst_ext) = name.
Proof.
  intros Hne. unfold file_stem, add_extension. rewrite last_dot_app. cbn [Nat.add].
  assert (E : forall p f, last_dot zst_ext p f = Some p) by (intros; reflexivity).
  rewrite E. destruct name as [|c t]; [congruence|]. cbn [length].
  change (S (length t)) with (length (c :: t)).
  rewrite firstn_app, Nat.sub_diag, firstn_all. cbn [firstn]. rewrite app_nil_r. reflexivity.
Qed.
