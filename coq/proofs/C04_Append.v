(** C04: the ring as a sequence of cells.  [idx s i] is the cell [i] places after the head; the first [len s] of
    them are live, [tail s] is the next one.  Every operation is then a statement about cells [idx s i], and the
    wrap-around is dealt with here once. *)
From Coq Require Import Lia ZArith List.
Import ListNotations.
From Coq Require Import ZifyBool.
Require Import Zrs.model.RingBuffer Zrs.proofs.C04_Basics.

Lemma len_eq s : len s = if head s <=? tail s then tail s - head s else cap s - head s + tail s.
Proof. unfold len, data_lens. destruct (head s <=? tail s); cbn; lia. Qed.
Lemma free_eq s : free s = if tail s <? head s then head s - tail s - 1 else head s + (cap s - tail s) - 1.
Proof. unfold free, free_lens. destruct (tail s <? head s); cbn; lia. Qed.

Lemma inv_bounds s : Inv s -> 0 < cap s -> head s < cap s /\ tail s < cap s.
Proof. intros (_ & HB & _). exact HB. Qed.

Lemma inv_cap0 s : Inv s -> cap s = 0 -> len s = 0 /\ free s = 0.
Proof.
  intros (HZ & _) Z0. destruct (HZ Z0) as [h0 t0]. rewrite len_eq, free_eq, h0, t0, Z0. split; reflexivity.
Qed.

Lemma len_lt s : tail s < cap s -> len s < cap s.
Proof. intros Ht. rewrite len_eq. destruct (head s <=? tail s) eqn:E; lia. Qed.

Lemma len_free s : Inv s -> 0 < cap s -> len s + free s = cap s - 1.
Proof.
  intros HI Hc. destruct (inv_bounds s HI Hc) as [Hh Ht]. rewrite len_eq, free_eq.
  destruct (head s <=? tail s) eqn:E1; destruct (tail s <? head s) eqn:E2; lia.
Qed.

Lemma idx_lt s i : head s < cap s -> i < cap s -> idx s i < cap s.
Proof. intros Hh Hi. unfold idx. destruct (head s + i <? cap s) eqn:E; lia. Qed.

Lemma idx_lo s i : head s + i < cap s -> idx s i = head s + i.
Proof. intros H. unfold idx. replace (head s + i <? cap s) with true by lia. reflexivity. Qed.

Lemma idx_hi s i : cap s <= head s + i -> idx s i = head s + i - cap s.
Proof. intros H. unfold idx. replace (head s + i <? cap s) with false by lia. reflexivity. Qed.

Lemma idx_inj s i j : i < cap s -> j < cap s -> idx s i = idx s j -> i = j.
Proof.
  unfold idx. intros Hi Hj. destruct (head s + i <? cap s) eqn:E1; destruct (head s + j <? cap s) eqn:E2; lia.
Qed.

Lemma idx_add s i j : head s < cap s -> i + j <= cap s ->
  idx s (i + j) = if idx s i + j <? cap s then idx s i + j else idx s i + j - cap s.
Proof.
  intros Hh Hij. unfold idx.
  destruct (head s + i <? cap s) eqn:E1; destruct (head s + (i + j) <? cap s) eqn:E2.
  - replace (head s + i + j <? cap s) with true by lia. lia.
  - replace (head s + i + j <? cap s) with false by lia. lia.
  - lia.
  - replace (head s + i - cap s + j <? cap s) with true by lia. lia.
Qed.

Lemma idx_run s i j : idx s i + j < cap s -> idx s (i + j) = idx s i + j.
Proof.
  unfold idx. destruct (head s + i <? cap s) eqn:E; intros H.
  - replace (head s + (i + j) <? cap s) with true by lia. lia.
  - replace (head s + (i + j) <? cap s) with false by lia. lia.
Qed.

Lemma idx_len s : head s < cap s -> tail s < cap s -> idx s (len s) = tail s.
Proof.
  intros Hh Ht. rewrite len_eq. destruct (head s <=? tail s) eqn:E1; [rewrite idx_lo by lia|rewrite idx_hi by lia]; lia.
Qed.

Lemma len_unique s l : head s < cap s -> tail s < cap s -> l < cap s -> idx s l = tail s -> len s = l.
Proof.
  intros Hh Ht Hl E. apply (idx_inj s); [apply len_lt; assumption|exact Hl|].
  rewrite idx_len by assumption. symmetry. exact E.
Qed.

Lemma live_idx s i : head s < cap s -> tail s < cap s ->
  (live s i <-> exists k, k < len s /\ i = idx s k).
Proof.
  intros Hh Ht. unfold live, idx. rewrite len_eq.
  destruct (head s <=? tail s) eqn:E.
  - split.
    + intros H. exists (i - head s). split; [lia|]. replace (head s + (i - head s) <? cap s) with true by lia. lia.
    + intros (k & Hk & ->). replace (head s + k <? cap s) with true by lia. lia.
  - split.
    + intros [H|H].
      * exists (i - head s). split; [lia|]. replace (head s + (i - head s) <? cap s) with true by lia. lia.
      * exists (cap s - head s + i). split; [lia|]. replace (head s + (cap s - head s + i) <? cap s) with false by lia. lia.
    + intros (k & Hk & ->). destruct (head s + k <? cap s) eqn:E2; lia.
Qed.

(** the invariant and the represented queue, cell by cell: how both are used, and how both are established *)
Lemma inv_cell s i : Inv s -> i < len s -> mem s (idx s i) = Some (nth i (abs s) 0%Z).
Proof.
  intros HI Hi. destruct (Nat.eq_dec (cap s) 0) as [Z0|NZ]; [destruct (inv_cap0 s HI Z0); lia|].
  destruct (inv_bounds s HI ltac:(lia)) as [Hh Ht]. destruct HI as (_ & _ & HL).
  destruct (HL (idx s i)) as (_ & b & Hb); [apply live_idx; eauto|].
  rewrite abs_nth by exact Hi. unfold cell. rewrite Hb. reflexivity.
Qed.

Lemma inv_abs_intro s l : head s < cap s -> tail s < cap s -> length l = len s ->
  (forall i, i < len s -> mem s (idx s i) = Some (nth i l 0%Z)) -> Inv s /\ abs s = l.
Proof.
  intros Hh Ht Hl H. pose proof (len_lt s Ht) as LL. split.
  - split; [lia|]. split; [auto|]. intros p Hp. apply live_idx in Hp; try assumption. destruct Hp as (i & Hi & ->).
    split; [apply idx_lt; lia|]. rewrite H by exact Hi. eauto.
  - apply (nth_ext _ _ 0%Z 0%Z); [rewrite abs_length; auto|].
    intros i Hi. rewrite abs_length in Hi. rewrite abs_nth by exact Hi. unfold cell. rewrite H by exact Hi. reflexivity.
Qed.

(** [stored], in cells of the ring: the run starts [a] places after the head *)
Definition stored_at (s : rb) (m m' : nat -> option Z) (a dl n : nat) (v : nat -> option Z) : Prop :=
  (forall j, j < n -> m' (idx s (a + j)) = v j) /\
  (forall i, i < cap s -> ~ (a <= i < a + dl) -> m' (idx s i) = m (idx s i)).

(** A run of [dl] cells that starts [a] places after the head and lies at [d .. d + dl) in memory (when it is
    empty, [d] is anything): what a raw write to it does to the cells of the ring. *)
Lemma run_idx s a d dl : d + dl <= cap s -> (0 < dl -> d = idx s a) -> forall j, j < dl -> idx s (a + j) = d + j.
Proof. intros Hd E j Hj. rewrite E by lia. apply idx_run. lia. Qed.

Lemma stored_idx s a d dl m m' n v :
  a + dl <= cap s -> d + dl <= cap s -> (0 < dl -> d = idx s a) ->
  stored m m' d dl n v -> n <= dl -> stored_at s m m' a dl n v.
Proof.
  intros Ha Hd E [A B] Hn. pose proof (run_idx s a d dl Hd E) as R. split.
  - intros j Hj. rewrite R by lia. apply A. exact Hj.
  - intros i Hi Ho. apply B. intros P. apply Ho.
    rewrite (idx_inj s i (a + (idx s i - d))); [lia|exact Hi|lia|]. rewrite R by lia. lia.
Qed.

(** generic "append n cells" step: all the growing operations end in this shape *)
Lemma append_lemma s n m' data :
  Inv s -> 0 < cap s -> n <= free s -> length data = n ->
  (forall i, i < len s -> m' (idx s i) = mem s (idx s i)) ->
  (forall i, i < n -> m' (idx s (len s + i)) = Some (nth i data 0%Z)) ->
  let s' := mkrb (cap s) (head s) ((tail s + n) mod cap s) m' in
  Inv s' /\ len s' = len s + n /\ abs s' = abs s ++ data.
Proof.
  intros HI Hc Hn Hd H1 H2 s'.
  pose proof (len_free s HI Hc) as LF. destruct (inv_bounds s HI Hc) as [Hh Ht].
  assert (tail s' = idx s (len s + n)) as Et.
  { unfold s'. cbn [tail]. rewrite mod_sub, <- (idx_len s Hh Ht) by lia. symmetry. apply idx_add; lia. }
  assert (tail s' < cap s) as Ht' by (rewrite Et; apply idx_lt; lia).
  assert (len s' = len s + n) as Hlen.
  { apply len_unique; [exact Hh|exact Ht'|cbn [cap s']; lia|symmetry; exact Et]. }
  destruct (inv_abs_intro s' (abs s ++ data)) as [I' A'].
  - exact Hh.
  - exact Ht'.
  - rewrite app_length, abs_length. lia.
  - intros i Hi. rewrite Hlen in Hi. change (mem s' (idx s' i)) with (m' (idx s i)).
    destruct (Nat.lt_ge_cases i (len s)) as [L|L].
    + rewrite app_nth1 by (rewrite abs_length; exact L). rewrite H1 by exact L. apply inv_cell; assumption.
    + rewrite app_nth2 by (rewrite abs_length; exact L). rewrite abs_length.
      replace i with (len s + (i - len s)) at 1 by lia. apply H2. lia.
  - auto.
Qed.
