(** C13: the compressor's Huffman code shape is valid for every alphabet size, and the decoder rebuilds exactly the
    compressor's code from the written description.  The shape is a function of the alphabet size alone and is
    evaluated for every size; that the decoder rebuilds the code is proved for every complete weight list. *)
Require Import Zrs.lib.RsPrelude Zrs.lib.ListFacts Zrs.proofs.ModelFacts Zrs.lib.Sweep Zrs.model.BitIO Zrs.model.FseDec Zrs.model.HufDec Zrs.model.HufEnc.
Require Import Zrs.proofs.C03_HufTable Zrs.proofs.C13_Canonical.
Require Import Zrs.proofs.C13_CanonCode Zrs.proofs.C13_Agree Zrs.proofs.C13_Accepted Zrs.proofs.C13_EncWeights.
Open Scope Z_scope.

(* entry i = (sym, nb) of the decoder's table must have codes[sym] = (i / 2^(M-nb), nb); [counts]: entries per symbol *)
Fixpoint table_pass (dec : list huf_entry) (i : Z) (codes : list (Z * Z)) (M : Z) (counts : list Z) : option (list Z) :=
  match dec with
  | [] => Some counts
  | e :: t =>
      let c := nth (Z.to_nat (h_sym e)) codes (0, 0) in
      if (1 <=? h_bits e) && (h_bits e <=? M) && (snd c =? h_bits e) && (fst c =? i / 2 ^ (M - h_bits e))
      then table_pass t (i + 1) codes M (upd_n counts (Z.to_nat (h_sym e)) (nth (Z.to_nat (h_sym e)) counts 0 + 1))
      else None
  end.
Fixpoint counts_ok (codes : list (Z * Z)) (counts : list Z) (M : Z) : bool :=
  match codes, counts with
  | [], [] => true
  | (_, nb) :: t, c :: t' => (c =? (if nb =? 0 then 0 else 2 ^ (M - nb))) && counts_ok t t' M
  | _, _ => false
  end.
Definition codes_agree (codes : list (Z * Z)) (sym : Z) (dec : list huf_entry) (M : Z) : bool :=
  match table_pass dec 0 codes M (map (fun _ => 0) codes) with
  | Some counts => counts_ok codes counts M
  | None => false
  end.

Fixpoint list_eqb (a b : list Z) : bool :=
  match a, b with [], [] => true | x :: a', y :: b' => (x =? y) && list_eqb a' b' | _, _ => false end.

(** for a full weight assignment [ws] (one weight per symbol, 0 = unused, last symbol used): the compressor's
    codes, the description it writes (all weights but the last) and the table the decoder builds from it agree *)
Definition enc_dec_check (ws : list Z) : bool :=
  match enc_build_from_weights ws with
  | ROk codes =>
      let written := removelast (enc_weights codes) in
      match build_table_from_weights written with
      | ROk (dec, M, bits, _, _) =>
          list_eqb bits (map snd codes) && (M <=? 11) && (Z.of_nat (length dec) =? 2 ^ M) &&
          codes_agree codes 0 dec M &&
          (fold_right (fun c acc => (if snd c =? 0 then 0 else 2 ^ (M - snd c)) + acc) 0 codes =? 2 ^ M)
      | _ => false
      end
  | _ => false
  end.

Definition holes (ws : list Z) : list Z :=     (* an unused symbol after every third used one, never at the end *)
  flat_map (fun p => if (fst p mod 3 =? 2) && negb (fst p + 1 =? Z.of_nat (length ws)) then [snd p; 0] else [snd p])
           (combine (map Z.of_nat (seq 0 (length ws))) ws).
Definition shape_orders_check (n : Z) : bool :=
  match shape n with
  | ROk ws => enc_dec_check ws && enc_dec_check (rev ws) && (if n <? 100 then enc_dec_check (holes ws) else true)
  | _ => false
  end.

Definition shape_ok (n : Z) (ws : list Z) : bool :=
  let k := kraft ws in
  (Z.of_nat (length ws) =? n) && is_pow2z k && forallb (fun w => (1 <=? w) && (w <=? Z.log2 k)) ws &&
  (Z.log2 k <=? Z.log2 n + 2) && (Z.log2 k <=? 11) && existsb (Z.eqb 1) ws.

(** [shape n] is evaluated once for each n, for all the facts about it *)
Definition shape_check (n : Z) : bool := match shape n with ROk ws => shape_ok n ws | _ => false end.
Lemma shape_sweep : sweep shape_check 2 257 = true.
Proof. vm_compute. reflexivity. Qed.

Lemma shape_checked n : 2 <= n <= 256 -> exists ws, shape n = ROk ws /\ shape_ok n ws = true.
Proof.
  intros H. pose proof (sweep_spec _ _ _ shape_sweep n ltac:(lia)) as C. unfold shape_check in C.
  destruct (shape n) as [ws| |]; try discriminate. exists ws. split; [reflexivity|exact C].
Qed.

Theorem shape_valid n : 2 <= n <= 256 ->
  exists ws, shape n = ROk ws /\ Z.of_nat (length ws) = n /\ is_pow2z (kraft ws) = true /\
    Forall (fun w => 1 <= w <= Z.log2 (kraft ws)) ws /\ Z.log2 (kraft ws) <= Z.log2 n + 2 /\ Z.log2 (kraft ws) <= 11.
Proof.
  intros H. destruct (shape_checked n H) as (ws & E & C). unfold shape_ok in C.
  repeat (apply andb_prop in C as [C ?]).
  exists ws. split; [exact E|]. split; [lia|]. split; [assumption|]. split; [|lia].
  apply Forall_forall. intros w Hw.
  match goal with A : forallb _ ws = true |- _ => rewrite forallb_forall in A; specialize (A w Hw) end. lia.
Qed.

Theorem shape_has_one n sh : 2 <= n <= 256 -> shape n = ROk sh -> In 1 sh.
Proof.
  intros H E. destruct (shape_checked n H) as (ws & E' & C). rewrite E in E'. injection E' as <-.
  unfold shape_ok in C. apply andb_prop in C as [_ C].
  apply existsb_exists in C as (x & Hx & Ex). apply Z.eqb_eq in Ex. subst x. exact Hx.
Qed.

Fixpoint occ (s : nat) (dec : list huf_entry) : Z :=
  match dec with [] => 0 | e :: t => (if (Z.to_nat (h_sym e) =? s)%nat then 1 else 0) + occ s t end.

Lemma occ_interval s dec : forall a m, (a + m <= length dec)%nat ->
  (forall k, (k < length dec)%nat -> Z.to_nat (h_sym (nth k dec hentry0)) = s <-> (a <= k < a + m)%nat) -> occ s dec = Z.of_nat m.
Proof.
  induction dec as [|e t IH]; intros a m Hl H; cbn [length occ] in *; [lia|].
  pose proof (H 0%nat ltac:(lia)) as H0. cbn [nth] in H0.
  assert (Ht : forall a' m', (forall k, (a' <= k < a' + m')%nat <-> (a <= S k < a + m)%nat) -> (a' + m' <= length t)%nat -> occ s t = Z.of_nat m').
  { intros a' m' Hk Hl'. apply (IH a' m' Hl'). intros k Hlt. specialize (H (S k) ltac:(lia)). cbn [nth] in H. specialize (Hk k). tauto. }
  destruct (Nat.eqb_spec (Z.to_nat (h_sym e)) s) as [Es|Es].
  - destruct a; [|lia]. destruct m as [|m]; [lia|]. rewrite (Ht 0%nat m) by (try intros k; lia). lia.
  - destruct a as [|a]; [destruct m; [|lia]; rewrite (Ht 0%nat 0%nat) by (try intros k; lia); lia|].
    rewrite (Ht a m) by (try intros k; lia). lia.
Qed.

Lemma table_pass_counts dec : forall i codes M counts,
  (forall k, (k < length dec)%nat -> let e := nth k dec hentry0 in
     1 <= h_bits e <= M /\ nth (Z.to_nat (h_sym e)) codes (0, 0) = ((i + Z.of_nat k) / 2 ^ (M - h_bits e), h_bits e)) ->
  exists counts', table_pass dec i codes M counts = Some counts' /\ length counts' = length counts /\
    forall s, nth s counts' 0 = nth s counts 0 + if (s <? length counts)%nat then occ s dec else 0.
Proof.
  induction dec as [|e t IH]; intros i codes M counts H; cbn [table_pass occ].
  - exists counts. split; [reflexivity|]. split; [reflexivity|]. intros s. destruct (s <? _)%nat; lia.
  - destruct (H 0%nat ltac:(cbn [length]; lia)) as (Hb & Hc). cbn [nth] in Hb, Hc. rewrite Z.add_0_r in Hc. rewrite Hc. cbn [fst snd].
    rewrite !Z.eqb_refl, !andb_true_r. assert ((1 <=? h_bits e) && (h_bits e <=? M) = true) as -> by lia.
    rewrite upd_n_upd.
    destruct (IH (i + 1) codes M (upd counts (Z.to_nat (h_sym e)) (nth (Z.to_nat (h_sym e)) counts 0 + 1))) as (c' & E & L & G).
    { intros k Hk. specialize (H (S k) ltac:(cbn [length]; lia)). cbn [nth] in H. replace (i + 1 + Z.of_nat k) with (i + Z.of_nat (S k)) by lia. exact H. }
    rewrite upd_length in L, G. exists c'. split; [exact E|]. split; [exact L|]. intros s. rewrite G, nth_upd.
    destruct (Nat.eqb_spec s (Z.to_nat (h_sym e))) as [->|Hne]; [rewrite Nat.eqb_refl|assert ((Z.to_nat (h_sym e) =? s)%nat = false) as -> by lia];
      cbn [andb]; destruct (_ <? length counts)%nat; lia.
Qed.

Lemma counts_ok_intro codes : forall counts M, length counts = length codes ->
  (forall s, (s < length codes)%nat -> nth s counts 0 = if snd (nth s codes (0, 0)) =? 0 then 0 else 2 ^ (M - snd (nth s codes (0, 0)))) ->
  counts_ok codes counts M = true.
Proof.
  induction codes as [|[c nb] t IH]; intros [|x counts] M L H; cbn [counts_ok]; try discriminate; [reflexivity|].
  apply andb_true_intro. split.
  - specialize (H 0%nat ltac:(cbn [length]; lia)). cbn [nth snd] in H. lia.
  - apply IH; [cbn [length] in L; lia|]. intros s Hs. apply (H (S s)). cbn [length]. lia.
Qed.

Section TablePass.
  Variables (dec : list huf_entry) (M : Z) (W : list Z) (codes : list (Z * Z)) (placed : list blk).
  Hypothesis Ld : Z.of_nat (length dec) = 2 ^ M.
  Hypothesis ND : NoDup (map blk_sym placed).
  Hypothesis Hblk : forall s base n, In (s, base, n) placed -> exists j,
    s = Z.of_nat j /\ (j < length W)%nat /\ nth j W 0 = Z.of_nat n + 1 /\ (n < Z.to_nat M)%nat /\
    0 <= base /\ base + 2 ^ Z.of_nat n <= 2 ^ M /\ base mod 2 ^ Z.of_nat n = 0 /\
    nth j codes (0, 0) = (base / 2 ^ Z.of_nat n, M - Z.of_nat n) /\
    forall i, base <= i < base + 2 ^ Z.of_nat n -> nth_h dec i = {| h_sym := Z.of_nat j; h_bits := M - Z.of_nat n |}.
  Hypothesis Hcover : forall i, 0 <= i < 2 ^ M -> exists s base n, In (s, base, n) placed /\ base <= i < base + 2 ^ Z.of_nat n.
  Hypothesis Hsyms : forall j, (j < length W)%nat -> 0 < nth j W 0 -> exists base, In (Z.of_nat j, base, Z.to_nat (nth j W 0 - 1)) placed.

  Lemma every_entry_passes : exists counts, table_pass dec 0 codes M (map (fun _ => 0) codes) = Some counts /\
    length counts = length codes /\ forall s, nth s counts 0 = if (s <? length codes)%nat then occ s dec else 0.
  Proof.
    destruct (table_pass_counts dec 0 codes M (map (fun _ => 0) codes)) as (counts & E & L & H).
    - intros k Hk. cbv zeta. destruct (Hcover (Z.of_nat k) ltac:(lia)) as (s & base & n & Hin & Hr).
      destruct (Hblk _ _ _ Hin) as (j & -> & Hj & _ & Hn & B0 & B1 & B2 & Ec & B6). clear Hblk Hcover Hsyms.
      pose proof (B6 _ Hr) as Ee. unfold nth_h in Ee. rewrite Nat2Z.id in Ee. rewrite Ee. cbn [h_sym h_bits]. clear B6 Ee.
      rewrite Nat2Z.id, Ec. split; [lia|]. f_equal.
      replace (M - (M - Z.of_nat n)) with (Z.of_nat n) by lia. assert (P : 0 < 2 ^ Z.of_nat n) by (apply Z.pow_pos_nonneg; lia).
      apply Z.mod_divide in B2 as (q & Eq); [|lia]. rewrite Eq, Z.div_mul by lia.
      apply (Z.div_unique _ _ q (Z.of_nat k - base)); lia.
    - exists counts. rewrite map_length in L, H. split; [exact E|]. split; [exact L|]. intros s. rewrite H.
      pose proof (map_nth (fun _ : Z * Z => 0) codes (0, 0) s) as Ez. cbv beta in Ez. rewrite Ez. apply Z.add_0_l.
  Qed.

  Lemma entry_symbol k s base n : In (s, base, n) placed -> base <= Z.of_nat k < base + 2 ^ Z.of_nat n ->
    Z.to_nat (h_sym (nth k dec hentry0)) = Z.to_nat s.
  Proof.
    intros Hin Hr. destruct (Hblk _ _ _ Hin) as (j & -> & _ & _ & _ & _ & _ & _ & _ & B6).
    pose proof (B6 _ Hr) as Ee. unfold nth_h in Ee. rewrite Nat2Z.id in Ee. rewrite Ee. reflexivity.
  Qed.

  Lemma symbol_count s : (s < length W)%nat -> occ s dec = if 0 <? nth s W 0 then 2 ^ (nth s W 0 - 1) else 0.
  Proof.
    intros Hs. destruct (Z.ltb_spec 0 (nth s W 0)) as [Hp|Hz].
    - destruct (Hsyms s Hs Hp) as (base & Hin). set (n := Z.to_nat (nth s W 0 - 1)) in *.
      destruct (Hblk _ _ _ Hin) as (j0 & _ & _ & _ & _ & B0 & B1 & _).
      assert (P : 0 < 2 ^ Z.of_nat n) by (apply Z.pow_pos_nonneg; lia).
      assert (Hrange : forall k, (Z.to_nat base <= k < Z.to_nat base + Z.to_nat (2 ^ Z.of_nat n))%nat <-> base <= Z.of_nat k < base + 2 ^ Z.of_nat n)
        by (clear - B0 P; intros k; lia).
      rewrite (occ_interval s dec (Z.to_nat base) (Z.to_nat (2 ^ Z.of_nat n))).
      + rewrite Z2Nat.id by lia. f_equal. unfold n. lia.
      + clear - B0 B1 P Ld. lia.
      + intros k Hk. rewrite Hrange. split.
        * intros Es. destruct (Hcover (Z.of_nat k) ltac:(lia)) as (s' & base' & n' & Hin' & Hr').
          rewrite (entry_symbol k _ _ _ Hin' Hr') in Es. destruct (Hblk _ _ _ Hin') as (j & -> & _). rewrite Nat2Z.id in Es. subst j.
          pose proof (nodup_key blk_sym placed _ _ ND Hin Hin' eq_refl) as Eq. injection Eq as <- <-. exact Hr'.
        * intros Hr'. rewrite (entry_symbol k _ _ _ Hin Hr'). apply Nat2Z.id.
    - apply (occ_interval s dec 0 0); [lia|]. intros k Hk. split; [|lia]. intros Es. exfalso.
      destruct (Hcover (Z.of_nat k) ltac:(lia)) as (s' & base' & n' & Hin' & Hr').
      rewrite (entry_symbol k _ _ _ Hin' Hr') in Es. destruct (Hblk _ _ _ Hin') as (j & -> & _ & Ew & _). rewrite Nat2Z.id in Es. subst j. lia.
  Qed.

  Theorem table_passes : length codes = length W -> Forall (fun w => 0 <= w <= M) W ->
    (forall i, (i < length W)%nat -> snd (nth i codes (0, 0)) = bits_of M (nth i W 0)) -> codes_agree codes 0 dec M = true.
  Proof.
    intros Lc HW Hsnd. unfold codes_agree. destruct every_entry_passes as (counts & -> & L & H).
    apply counts_ok_intro; [exact L|]. intros s Hs. rewrite H. assert ((s <? length codes)%nat = true) as -> by (apply Nat.ltb_lt; exact Hs).
    rewrite Lc in Hs. rewrite (symbol_count s Hs), (Hsnd s Hs). unfold bits_of.
    pose proof (proj1 (Forall_forall _ _) HW _ (nth_In W 0 Hs)) as Hr. cbv beta in Hr.
    destruct (Z.ltb_spec 0 (nth s W 0)); [|reflexivity]. assert (M + 1 - nth s W 0 =? 0 = false) as -> by lia. f_equal. lia.
  Qed.
End TablePass.

Lemma accepted_table_passes ws codes : Forall (fun w => 0 <= w) ws -> (length ws <= 255)%nat -> accepts ws = true ->
  let M := highest_bit_set (kraft ws) in let W := ws ++ [highest_bit_set (2 ^ M - kraft ws)] in
  enc_build_from_weights W = ROk codes ->
  forall dec bits ranks idxs, build_table_from_weights ws = ROk (dec, M, bits, ranks, idxs) -> codes_agree codes 0 dec M = true.
Proof.
  intros Hnn Hlen Ha M W Henc dec bits0 ranks idxs Hb.
  destruct (accepted_table_blocks ws Hnn Ha) as (HM & Hlw & HW & Hk & dec' & ranks' & idxs' & placed & E & Ld & Gr & ND & Hblk & Hcover & Hsyms).
  fold M W in HW, Hk, E, Ld, Gr, Hblk, Hcover, Hsyms. rewrite Hb in E. injection E as <- _ <- _. clear bits0 Hb.
  set (bits := map (fun w => if 0 <? w then M + 1 - w else 0) W) in *.
  assert (LW : length W = S (length ws)) by (unfold W; rewrite app_length; cbn [length]; lia).
  assert (Lb : length bits = length W) by apply map_length.
  assert (Ebit : forall j, (j < length W)%nat -> 0 <= nth j W 0 <= M /\ nth j bits 0 = bits_of M (nth j W 0)).
  { intros j Hj. split; [rewrite Forall_forall in HW; apply HW, nth_In, Hj|].
    unfold bits. rewrite (nth_indep _ 0 (bits_of M 0)) by (rewrite map_length; exact Hj). apply (map_nth (bits_of M)). }
  destruct (enc_code_lengths W codes ltac:(rewrite Hk, Z.log2_pow2 by lia; exact HW) Henc) as (Lc & Hsnd). rewrite Hk, Z.log2_pow2 in Hsnd by lia.
  apply (table_passes dec M W codes placed Ld ND); [|exact Hcover| |exact Lc|exact HW|exact Hsnd].
  - intros s base n Hin. destruct (Hblk _ _ _ Hin) as (B1 & B3 & B4 & B5 & B6 & j & Hj & -> & Hpos & En & Ebase). rewrite Lb in Hj.
    clear Hblk Hcover Hsyms.   (* [lia] is slow under large quantified hypotheses *)
    destruct (Ebit j Hj) as (Hr & Ex). rewrite Ex in Hpos, En. unfold bits_of in Hpos, En. destruct (Z.ltb_spec 0 (nth j W 0)) as [Hp|]; [|lia].
    assert (En' : nth j W 0 = Z.of_nat n + 1) by lia.
    exists j. split; [reflexivity|]. split; [exact Hj|]. split; [exact En'|]. split; [exact B1|]. split; [exact B3|]. split; [exact B4|]. split; [exact B5|]. split.
    + rewrite (enc_code_at_canonical_place M W ranks codes ltac:(lia) HW Hk Gr Henc j Hj Hp). cbv zeta. change (map (bits_of M) W) with bits.
      assert (Eb : bits_of M (nth j W 0) = M - Z.of_nat n) by (unfold bits_of; assert (0 <? nth j W 0 = true) as -> by lia; lia).
      rewrite Ex, Eb in Ebase. rewrite Eb. replace (M - (M - Z.of_nat n)) with (Z.of_nat n) by lia. rewrite Nat2Z.id, <- Ebase. reflexivity.
    + intros i Hi. rewrite (B6 i Hi), Z.mod_small by lia. reflexivity.
  - intros j Hj Hp. destruct (Ebit j Hj) as (Hr & Ex). clear Hblk Hcover.
    assert (Eb : nth j bits 0 = M + 1 - nth j W 0) by (rewrite Ex; unfold bits_of; assert (0 <? nth j W 0 = true) as -> by lia; reflexivity).
    destruct (Hsyms j ltac:(rewrite Lb; exact Hj) ltac:(rewrite Eb; clear - Hr; lia)) as (base & Hin & _).
    exists base. rewrite Eb in Hin. replace (M - (M + 1 - nth j W 0)) with (nth j W 0 - 1) in Hin by (clear; lia). exact Hin.
Qed.

Lemma list_eqb_refl l : list_eqb l l = true.
Proof. induction l as [|x t IH]; cbn [list_eqb]; [reflexivity|]. rewrite Z.eqb_refl. exact IH. Qed.

Lemma code_sizes_sum M W : forall codes, length codes = length W ->
  (forall i, (i < length W)%nat -> snd (nth i codes (0, 0)) = bits_of M (nth i W 0)) -> Forall (fun w => 0 <= w <= M) W ->
  fold_right (fun c acc => (if snd c =? 0 then 0 else 2 ^ (M - snd c)) + acc) 0 codes = kraft W.
Proof.
  induction W as [|w t IH]; intros [|c codes] L H HW; try discriminate; [reflexivity|].
  inversion HW as [|? ? Hw Ht]; subst. cbn [fold_right]. rewrite kraft_cons, (IH codes); [|cbn [length] in L; lia| |exact Ht].
  - pose proof (H 0%nat ltac:(cbn [length]; lia)) as H0. cbn [nth] in H0. rewrite H0. unfold bits_of.
    destruct (Z.ltb_spec 0 w); [|reflexivity]. assert (M + 1 - w =? 0 = false) as -> by lia. do 2 f_equal. lia.
  - intros i Hi. apply (H (S i)). cbn [length]. lia.
Qed.

Theorem enc_dec_check_complete W M : Forall (fun w => 0 <= w <= M) W -> M <= 11 -> kraft W = 2 ^ M -> In 1 W ->
  0 < last W 0 -> (length W <= 256)%nat -> enc_dec_check W = true.
Proof.
  intros HW H11 Hk H1 Hlast Hlen.
  assert (HWne : W <> []) by (intros ->; contradiction).
  pose proof (app_removelast_last 0 HWne) as EW. set (ws := removelast W) in *. set (lw := last W 0) in *.
  assert (LW : length W = S (length ws)) by (rewrite EW, app_length; cbn [length]; lia).
  pose proof HW as HW'. rewrite EW in HW'. apply Forall_app in HW' as [Hws Hlw]. apply Forall_inv in Hlw.
  assert (Hws' : Forall (fun w => 0 <= w <= MAX_MAX_NUM_BITS) ws) by (eapply Forall_impl; [|exact Hws]; intros a Ha'; cbv beta in *; unfold MAX_MAX_NUM_BITS; lia).
  assert (Hnn : Forall (fun w => 0 <= w) ws) by (eapply Forall_impl; [|exact Hws]; intros a Ha'; cbv beta in *; lia).
  pose proof Hk as Hk'. rewrite EW in Hk'.
  assert (Kws : 0 < kraft ws).
  { rewrite kraft_snoc in Hk' by lia. assert (2 ^ (lw - 1) < 2 ^ M) by (apply Z.pow_lt_mono_r; lia). lia. }
  destruct (complete_weights_accepts ws lw M Hws' ltac:(lia) ltac:(unfold MAX_MAX_NUM_BITS; lia) Kws Hk') as (Ha & EM & Elw).
  destruct (accepted_table_blocks ws Hnn Ha) as (_ & _ & _ & _ & dec & ranks & idxs & _ & Hb & Ld & _). rewrite EM, Elw, <- EW in Hb.
  assert (Hpow : is_pow2z (kraft W) = true).
  { unfold is_pow2z. rewrite Hk, Z.log2_pow2 by lia. pose proof (Z.pow_pos_nonneg 2 M ltac:(lia) ltac:(lia)). apply andb_true_intro. split; lia. }
  assert (Henc : exists codes, enc_build_from_weights W = ROk codes) by (unfold enc_build_from_weights; rewrite Hpow; eexists; reflexivity).
  destruct Henc as (codes & Henc).
  assert (Elog : Z.log2 (kraft W) = M) by (rewrite Hk; apply Z.log2_pow2; lia).
  pose proof (enc_weights_are_the_weights W codes ltac:(rewrite Elog; exact HW) H1 Henc) as Ew.
  destruct (enc_code_lengths W codes ltac:(rewrite Elog; exact HW) Henc) as (Lc & Hsnd). rewrite Elog in Hsnd.
  pose proof (accepted_table_passes ws codes Hnn ltac:(lia) Ha) as P. cbv zeta in P. rewrite EM, Elw, <- EW in P. specialize (P Henc _ _ _ _ Hb).
  unfold enc_dec_check. rewrite Henc, Ew. fold ws. rewrite Hb.
  assert (Esnd : map snd codes = map (bits_of M) W).
  { apply (nth_ext _ _ 0 0); [rewrite !map_length; exact Lc|]. intros i Hi. rewrite map_length, Lc in Hi.
    rewrite (nth_indep _ 0 (snd (0, 0))), map_nth by (rewrite map_length; lia).
    rewrite (nth_indep _ 0 (bits_of M 0)), (map_nth (bits_of M)) by (rewrite map_length; lia). apply (Hsnd i Hi). }
  rewrite Esnd, (code_sizes_sum M W codes Lc Hsnd HW), Hk, P.
  change (fun w : Z => if 0 <? w then M + 1 - w else 0) with (bits_of M). rewrite list_eqb_refl, Z.eqb_refl.
  rewrite EM in Ld. cbn [andb]. lia.
Qed.



Lemma holes_props N : forall ws k, ws <> [] -> (k + length ws = N)%nat ->
  let h := flat_map (fun p : Z * Z => if (fst p mod 3 =? 2) && negb (fst p + 1 =? Z.of_nat N) then [snd p; 0] else [snd p])
                    (combine (map Z.of_nat (seq k (length ws))) ws) in
  kraft h = kraft ws /\ last h 0 = last ws 0 /\ (forall x, In x h -> x = 0 \/ In x ws) /\ (forall x, In x ws -> In x h) /\
  (length h <= 2 * length ws)%nat.
Proof.
  induction ws as [|w t IH]; intros k Hne HN; [contradiction|]. destruct t as [|w' t'].
  - cbn [length seq map combine flat_map fst snd]. assert (Z.of_nat k + 1 =? Z.of_nat N = true) as -> by (cbn [length] in HN; lia).
    rewrite andb_false_r, app_nil_r. cbn [length In]. repeat split; auto; lia.
  - specialize (IH (S k) ltac:(discriminate) ltac:(cbn [length] in *; lia)). cbv zeta in IH. destruct IH as (K & L & I1 & I2 & Len).
    change (length (w :: w' :: t')) with (S (length (w' :: t'))). cbn [seq map combine flat_map fst snd].
    set (h' := flat_map _ (combine (map Z.of_nat (seq (S k) (length (w' :: t')))) (w' :: t'))) in *.
    assert (Hh' : h' <> []) by (intros E; pose proof (I2 w' (or_introl eq_refl)) as X; rewrite E in X; exact X).
    set (a := if (Z.of_nat k mod 3 =? 2) && negb (Z.of_nat k + 1 =? Z.of_nat N) then [w; 0] else [w]).
    assert (Ha : a = [w; 0] \/ a = [w]) by (unfold a; destruct (_ && _); auto).
    split; [rewrite kraft_app, K, (kraft_cons w (w' :: t')); destruct Ha as [-> | ->]; rewrite !kraft_cons; change (kraft []) with 0; change (if 0 <? 0 then 2 ^ (0 - 1) else 0) with 0; lia|].
    split; [rewrite (last_app_ne a h' 0 Hh'); exact L|].
    split; [intros x Hx; apply in_app_or in Hx as [Hx|Hx]; [destruct Ha as [-> | ->]; cbn [In] in Hx; intuition (subst; cbn [In]; auto)|destruct (I1 x Hx); cbn [In]; auto]|].
    split; [intros x [<-|Hx]; apply in_or_app; [left; destruct Ha as [-> | ->]; left; reflexivity|right; exact (I2 x Hx)]|].
    rewrite app_length. destruct Ha as [-> | ->]; cbn [length] in *; lia.
Qed.

(** for every alphabet size: with the symbols ranked in increasing order, in decreasing order, and (below 100 symbols)
    with unused symbols interleaved, the decoder's table built from the written weights has exactly the compressor's
    code lengths, is complete, has depth <= 11, and decodes every table index to the symbol whose code is its prefix *)
Theorem enc_dec_agree n : 2 <= n <= 256 -> shape_orders_check n = true.
Proof.
  intros Hn. destruct (shape_valid n Hn) as (ws & E & Ln & Hpow & Hr & _ & H11). pose proof (shape_has_one n ws Hn E) as H1.
  unfold shape_orders_check. rewrite E. set (M := Z.log2 (kraft ws)) in *.
  unfold is_pow2z in Hpow. apply andb_prop in Hpow as [Hp1 Hp2]. assert (Hk : kraft ws = 2 ^ M) by (unfold M; lia).
  assert (Hne : ws <> []) by (intros ->; contradiction).
  assert (Hr0 : Forall (fun w => 0 <= w <= M) ws) by (eapply Forall_impl; [|exact Hr]; intros a Ha; cbv beta in *; lia).
  assert (Hpos : forall x, In x ws -> 0 < x) by (intros x Hx; rewrite Forall_forall in Hr; specialize (Hr x Hx); lia).
  assert (Hlast : 0 < last ws 0) by (apply Hpos; rewrite (app_removelast_last 0 Hne) at 2; apply in_or_app; right; left; reflexivity).
  apply andb_true_intro. split; [apply andb_true_intro; split|].
  - apply (enc_dec_check_complete ws M Hr0 H11 Hk H1 Hlast). lia.
  - apply (enc_dec_check_complete (rev ws) M (Forall_rev Hr0) H11); [rewrite kraft_rev; exact Hk|apply in_rev in H1; exact H1| |rewrite rev_length; lia].
    destruct ws as [|w t]; [contradiction|]. cbn [rev]. rewrite last_last. apply Hpos. left. reflexivity.
  - destruct (Z.ltb_spec n 100) as [H100|]; [|reflexivity].
    destruct (holes_props (length ws) ws 0 Hne eq_refl) as (K & L & I1 & I2 & Len). fold (holes ws) in K, L, I1, I2, Len.
    apply (enc_dec_check_complete (holes ws) M); [|exact H11|rewrite K; exact Hk|apply I2; exact H1|rewrite L; exact Hlast|lia].
    apply Forall_forall. intros x Hx. destruct (I1 x Hx) as [->|Hin]; [pose proof (Z.log2_nonneg (kraft ws)) as HM0; fold M in HM0; lia|].
    rewrite Forall_forall in Hr0. apply Hr0. exact Hin.
Qed.

Theorem dec_rejects_big_weight ws : Exists (fun w => 11 < w) ws ->
  build_table_from_weights ws = RErr "WeightBiggerThanMaxNumBits"%string.
Proof.
  intros H. unfold build_table_from_weights. rewrite weight_sum_eq.
  assert (forallb (fun w => w <=? MAX_MAX_NUM_BITS) ws = false) as ->; [|reflexivity].
  apply not_true_is_false. intros F. rewrite forallb_forall in F. apply Exists_exists in H as (w & Hin & Hw).
  specialize (F w Hin). unfold MAX_MAX_NUM_BITS in F. lia.
Qed.

Theorem dec_accepts_only_complete_codes ws dec M bits ranks idxs :
  build_table_from_weights ws = ROk (dec, M, bits, ranks, idxs) ->
  exists wsum, weight_sum ws 0 = ROk wsum /\ 0 < wsum /\ M = highest_bit_set wsum /\ M <= 11 /\
    is_pow2 (2 ^ M - wsum) = true.
Proof.
  intros H. unfold build_table_from_weights in H. rewrite weight_sum_eq, Z.add_0_l in *.
  destruct (forallb _ ws); cbn [rbind] in H; [|discriminate]. exists (kraft ws). split; [reflexivity|].
  destruct (kraft ws =? 0) eqn:E0; [discriminate|]. cbv zeta in H.
  destruct (is_pow2 _) eqn:Ep; cbn [negb] in H; [|discriminate].
  destruct (MAX_MAX_NUM_BITS <? _) eqn:Em; [discriminate|].
  destruct (count_ranks _ _); cbn [rbind] in H; try discriminate. destruct (negb _); [discriminate|].
  destruct (assign_codes _ _ _ _ _) as [[i d]| |]; cbn [rbind] in H; try discriminate. injection H as _ <- _ _ _.
  pose proof (kraft_nonneg ws). unfold MAX_MAX_NUM_BITS in Em. repeat split; [lia|lia|exact Ep].
Qed.
