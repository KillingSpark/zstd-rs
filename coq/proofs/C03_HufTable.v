(** C03 / C13: what the loops of the Huffman table builder ([build_table_from_weights]) compute, one by one: the weight
    sum is the Kraft sum of the weights or a refusal, the rank counters count the code lengths, the rank indexes are the
    starts of the regions of equal code length, and filling a range overwrites that range and nothing else. *)
Require Import Zrs.lib.RsPrelude Zrs.lib.ListFacts Zrs.proofs.ModelFacts Zrs.model.FseDec Zrs.model.HufDec Zrs.model.HufEnc.
Open Scope Z_scope.

Lemma hentries0_len n : length (hentries0 n) = n.
Proof. induction n; cbn [hentries0 length]; congruence. Qed.

Lemma weight_sum_eq ws : forall acc, weight_sum ws acc =
  if forallb (fun w => w <=? MAX_MAX_NUM_BITS) ws then ROk (acc + kraft ws) else RErr "WeightBiggerThanMaxNumBits".
Proof.
  induction ws as [|w t IH]; intros acc; cbn [weight_sum forallb]; [change (kraft []) with 0; rewrite Z.add_0_r; reflexivity|].
  rewrite Z.ltb_antisym. destruct (w <=? MAX_MAX_NUM_BITS); cbn [negb andb]; [|reflexivity].
  rewrite IH, kraft_cons. destruct (forallb _ t); [f_equal; lia|reflexivity].
Qed.

Fixpoint cnt (b : Z) (bits : list Z) : Z := match bits with [] => 0 | x :: t => (if x =? b then 1 else 0) + cnt b t end.
Lemma cnt_nonneg b bits : 0 <= cnt b bits.
Proof. induction bits as [|x t IH]; cbn [cnt]; [lia|]. destruct (x =? b); lia. Qed.
Lemma cnt_nth_pos d s bits : (s < length bits)%nat -> 0 < cnt (nth s bits d) bits.
Proof.
  revert s. induction bits as [|x t IH]; intros s Hs; [cbn in Hs; lia|]. destruct s as [|s]; cbn [nth cnt].
  - rewrite Z.eqb_refl. pose proof (cnt_nonneg x t). lia.
  - specialize (IH s ltac:(cbn [length] in Hs; lia)). destruct (x =? nth s t d); lia.
Qed.
Lemma cnt_app b l1 l2 : cnt b (l1 ++ l2) = cnt b l1 + cnt b l2.
Proof. induction l1 as [|x t IH]; cbn [app cnt]; [lia|]. rewrite IH. lia. Qed.

Lemma cnt_firstn_le b l : forall j1 j2, (j1 <= j2)%nat -> cnt b (firstn j1 l) <= cnt b (firstn j2 l).
Proof.
  intros j1 j2 H. replace j2 with (j1 + (j2 - j1))%nat by lia. rewrite firstn_split, cnt_app.
  pose proof (cnt_nonneg b (firstn (j2 - j1) (skipn j1 l))). lia.
Qed.
Lemma cnt_firstn_S l j : (j < length l)%nat -> cnt (nth j l 0) (firstn (S j) l) = cnt (nth j l 0) (firstn j l) + 1.
Proof. intros H. rewrite (firstn_S_nth 0 j l H), cnt_app. cbn [cnt]. rewrite Z.eqb_refl. lia. Qed.
Lemma cnt_firstn_all b l j : cnt b (firstn j l) <= cnt b l.
Proof. rewrite <- (firstn_skipn j l) at 2. rewrite cnt_app. pose proof (cnt_nonneg b (skipn j l)). lia. Qed.

Lemma cnt_select b l : forall q, 0 <= q < cnt b l -> exists j, (j < length l)%nat /\ nth j l 0 = b /\ cnt b (firstn j l) = q.
Proof.
  induction l as [|x t IH]; intros q Hq; cbn [cnt] in Hq; [lia|].
  destruct (Z.eqb_spec x b) as [->|Hne].
  - destruct (Z.eq_dec q 0) as [->|Hq0]; [exists 0%nat; cbn [length nth firstn cnt]; repeat split; lia|].
    destruct (IH (q - 1) ltac:(lia)) as (j & Hj & Hn & Hc). exists (S j). cbn [length nth firstn cnt]. rewrite Z.eqb_refl. repeat split; [lia|exact Hn|lia].
  - destruct (IH q ltac:(lia)) as (j & Hj & Hn & Hc). exists (S j). cbn [length nth firstn cnt].
    destruct (Z.eqb_spec x b); [contradiction|]. repeat split; [lia|exact Hn|lia].
Qed.

Lemma count_ranks_spec bits : forall ranks M, Z.of_nat (length ranks) = M + 1 -> Forall (fun b => 0 <= b <= M) bits ->
  exists r, count_ranks bits ranks = ROk r /\ forall b, 0 <= b -> nth_z r b = nth_z ranks b + cnt b bits.
Proof.
  induction bits as [|x t IH]; intros ranks M Hl Hb; cbn [count_ranks].
  - exists ranks. split; [reflexivity|]. intros b _. cbn [cnt]. lia.
  - inversion Hb; subst. destruct (Z.leb_spec (Z.of_nat (length ranks)) x) as [H|_]; [lia|].
    destruct (IH (upd ranks (Z.to_nat x) (nth_z ranks x + 1)) M ltac:(rewrite upd_length; exact Hl) ltac:(assumption)) as (r & E & G).
    exists r. split; [exact E|]. intros b Hb0. rewrite G by exact Hb0. rewrite nth_z_upd by lia. cbn [cnt].
    destruct (Z.eqb_spec b x) as [->|Hn]; [rewrite Z.eqb_refl; lia|]. destruct (Z.eqb_spec x b); [lia|lia].
Qed.

(** [region M ranks n]: where in the decoding table the codes of length [M - n] start, after those of the longer
    lengths, a code of length [b] taking [2 ^ (M - b)] entries *)
Fixpoint region (M : Z) (ranks : list Z) (n : nat) : Z :=
  match n with
  | O => 0
  | S k => region M ranks k + nth_z ranks (M - Z.of_nat k) * 2 ^ Z.of_nat k
  end.

Lemma rank_idx_loop_inv n : forall M ranks idxs done,
  Z.of_nat (length idxs) = M + 1 -> (done + n <= Z.to_nat M)%nat -> 0 <= M ->
  (forall k, (k <= done)%nat -> nth_z idxs (M - Z.of_nat k) = region M ranks k) ->
  let out := rank_idx_loop n (M - Z.of_nat done) M ranks idxs in
  Z.of_nat (length out) = M + 1 /\ forall k, (k <= done + n)%nat -> nth_z out (M - Z.of_nat k) = region M ranks k.
Proof.
  induction n as [|n IH]; intros M ranks idxs done Hl Hd HM Hinv; cbn [rank_idx_loop].
  - rewrite Nat.add_0_r. split; assumption.
  - replace (M - Z.of_nat done - 1) with (M - Z.of_nat (S done)) by lia.
    replace (done + S n)%nat with (S done + n)%nat by lia.
    apply IH; [rewrite upd_length; exact Hl|lia|exact HM|].
    intros k Hk. rewrite nth_z_upd by lia.
    destruct (Z.eqb_spec (M - Z.of_nat k) (M - Z.of_nat (S done))) as [E|E].
    + assert (k = S done) by lia. subst k. cbn [region]. rewrite (Hinv done (le_n _)).
      replace (M - (M - Z.of_nat done)) with (Z.of_nat done) by lia. reflexivity.
    + apply Hinv. lia.
Qed.

Lemma region_mono M ranks : (forall b, 0 <= nth_z ranks b) -> forall a b, (a <= b)%nat -> region M ranks a <= region M ranks b.
Proof.
  intros Hr a b Hab. induction Hab as [|b Hab IH]; [lia|]. cbn [region].
  assert (0 <= nth_z ranks (M - Z.of_nat b) * 2 ^ Z.of_nat b) by (apply Z.mul_nonneg_nonneg; [apply Hr|apply Z.pow_nonneg; lia]). lia.
Qed.

Lemma fill_range_length n : forall base e dec, length (fill_range n base e dec) = length dec.
Proof. induction n as [|n IH]; intros base e dec; cbn [fill_range]; [reflexivity|]. rewrite IH. apply upd_length. Qed.

Lemma fill_range_spec n : forall base e dec j, 0 <= base -> 0 <= j -> base + Z.of_nat n <= Z.of_nat (length dec) ->
  nth_h (fill_range n base e dec) j = if (base <=? j) && (j <? base + Z.of_nat n) then e else nth_h dec j.
Proof.
  induction n as [|n IH]; intros base e dec j Hb Hj Hl; cbn [fill_range].
  - assert ((base <=? j) && (j <? base + Z.of_nat 0) = false) as -> by lia. reflexivity.
  - rewrite IH by (rewrite ?upd_length; lia). unfold nth_h. rewrite nth_upd.
    assert ((base <=? j) && (j <? base + Z.of_nat (S n)) =
            (base + 1 <=? j) && (j <? base + 1 + Z.of_nat n) || (Z.to_nat j =? Z.to_nat base)%nat && (Z.to_nat j <? length dec)%nat) as -> by lia.
    destruct ((base + 1 <=? j) && (j <? base + 1 + Z.of_nat n)); reflexivity.
Qed.
