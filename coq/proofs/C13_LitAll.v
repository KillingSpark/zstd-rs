(** C13 / C01: the remaining layouts of the literals section.  Raw and RLE literals in each of their three size formats
    and Huffman-coded literals in a single stream decode to the literals that were written (the four-stream layout is
    in C13_LitSection.v).  Together: every literals type, stream count and size format of the format. *)
Require Import Zrs.lib.RsPrelude Zrs.proofs.ModelFacts Zrs.model.Headers Zrs.model.BitIO Zrs.model.HufDec Zrs.model.BlockDec Zrs.model.LitEnc.
Require Import Zrs.proofs.C13_Stream Zrs.proofs.C13_LitSection Zrs.proofs.C03_Literals.
Open Scope Z_scope.

(** the header of raw (type 0) and RLE (type 1) literals *)
Definition plain_header (ty n : Z) : list Z :=
  if n <? 32 then [ty + 8 * n]
  else if n <? 4096 then [ty + 4 + 16 * (n mod 16); n / 16]
  else [ty + 12 + 16 * (n mod 16); (n / 16) mod 256; n / 4096].

Lemma plain_header_parse ty n rest : (ty = 0 \/ ty = 1) -> 0 <= n < 2 ^ 20 ->
  lit_header_parse (plain_header ty n ++ rest) = ROk (zlen (plain_header ty n), ty, n, None, None).
Proof.
  intros Hty Hn. change (2 ^ 20) with 1048576 in Hn.
  assert (E : exists k V, plain_header ty n = le_bytes k V /\ 0 <= V < 256 ^ Z.of_nat k /\ need_spec V = Z.of_nat k /\
                          V mod 4 = ty /\ V / (if (k =? 1)%nat then 8 else 16) = n).
  { unfold plain_header, need_spec. cbv zeta.
    destruct (Z.ltb_spec n 32) as [H32|H32]; [|destruct (Z.ltb_spec n 4096) as [H4k|H4k]].
    - exists 1%nat, (ty + 8 * n). cbn [le_bytes Nat.eqb].
      assert ((ty + 8 * n) mod 4 <? 2 = true) as -> by lia.
      assert ((((ty + 8 * n) / 4) mod 4 =? 0) || (((ty + 8 * n) / 4) mod 4 =? 2) = true) as -> by lia.
      repeat split; try lia. f_equal. lia.
    - exists 2%nat, (ty + 4 + 16 * n). cbn [le_bytes Nat.eqb].
      assert ((ty + 4 + 16 * n) mod 4 <? 2 = true) as -> by lia.
      replace (((ty + 4 + 16 * n) / 4) mod 4) with 1 by lia. cbn [Z.eqb Pos.eqb orb].
      repeat split; try lia. f_equal; [lia|f_equal; lia].
    - exists 3%nat, (ty + 12 + 16 * n). cbn [le_bytes Nat.eqb].
      assert ((ty + 12 + 16 * n) mod 4 <? 2 = true) as -> by lia.
      replace (((ty + 12 + 16 * n) / 4) mod 4) with 3 by lia. cbn [Z.eqb Pos.eqb orb].
      repeat split; try lia. f_equal; [lia|f_equal; [lia|f_equal; lia]]. }
  destruct E as (k & V & -> & HV & Hk & E1 & E2).
  rewrite lit_header_parse_word by assumption. unfold header_fields, zlen. rewrite E1, E2, le_bytes_length.
  assert (ty <? 2 = true) as -> by lia. reflexivity.
Qed.

Lemma repeat_z_len' b n : length (repeat_z b n) = n.
Proof. exact (repeat_z_length b n). Qed.

Theorem rle_literals_decode ht b n : 0 <= n ->
  decode_literals {| ls_type := 1; ls_regen := n; ls_comp := None; ls_streams := None |} ht [b] = ROk (ht, repeat_z b (Z.to_nat n), 1).
Proof. intros Hn. unfold decode_literals. cbn [ls_type ls_regen]. change (1 =? 0) with false. change (1 =? 1) with true. reflexivity. Qed.

(** size format 0: one stream, 10-bit sizes *)
Definition huf1_header (ty regen comp : Z) : list Z := le_bytes 3 (ty + 16 * regen + 16 * 1024 * comp).

Lemma huf1_header_parse ty regen comp rest : (ty = 2 \/ ty = 3) -> 0 <= regen < 1024 -> 0 <= comp < 1024 ->
  lit_header_parse (huf1_header ty regen comp ++ rest) = ROk (3, ty, regen, Some comp, Some 1).
Proof.
  intros Hty Hr Hc. unfold huf1_header. rewrite <- (Z.add_0_r ty) at 1.
  apply (compressed_header_parse 3 0 ty regen comp rest Hty); [tauto|exact Hr|exact Hc].
Qed.

Lemma stream_true_false t s out x : huf_decode_stream t s out true = ROk x -> huf_decode_stream t s out false = ROk x.
Proof.
  unfold huf_decode_stream. destruct (rbr_skip_padding (rbr_new s)) as [br|]; [|discriminate].
  destruct (huf_init_state t br) as [st b]. destruct (huf_stream_loop _ t st b out) as [[o b2]|e|e]; cbn [rbind]; try discriminate.
  cbn [andb]. destruct (negb _); [discriminate|]. auto.
Qed.

Section One.
  Variable t : huf_table.
  Variable Mn : nat.
  Hypothesis HM : ht_max_bits t = Z.of_nat Mn.
  Hypothesis HM1 : (1 <= Mn)%nat.
  Hypothesis Hlen : ht_len t = 2 ^ Z.of_nat Mn.
  Variable code : Z -> hcode.
  Variable lits : list Z.
  Hypothesis Hne : lits <> [].
  Hypothesis Hok : Forall (code_ok Mn code) lits.
  Hypothesis Hres : Forall (resolves t Mn code) lits.

  Theorem huffman_one_stream_decodes ty desc ht :
    (ty = 2 /\ huf_build_decoder ht (desc ++ hstream code lits) = ROk (t, zlen desc)) \/ (ty = 3 /\ desc = [] /\ ht = t) ->
    decode_literals {| ls_type := ty; ls_regen := zlen lits; ls_comp := Some (zlen (desc ++ hstream code lits)); ls_streams := Some 1 |}
                    ht (desc ++ hstream code lits) = ROk (t, lits, zlen (desc ++ hstream code lits)).
  Proof.
    intros Hty. apply (literals_behind_description _ _ _ _ _ _ _ _ Hty); [lia|].
    unfold decode_literals. cbn [ls_type ls_regen ls_comp ls_streams Z.eqb Pos.eqb].
    rewrite Z.ltb_irrefl, (take_all _ _ eq_refl), HM. destruct (Z.eqb_spec (Z.of_nat Mn) 0) as [H|_]; [lia|]. cbn [rbind].
    pose proof (zlen_nonneg (hstream code lits)) as P0. destruct (Z.ltb_spec (zlen (hstream code lits)) 0) as [H|_]; [lia|].
    change (drop_z 0 (hstream code lits)) with (huf_stream_bytes code lits).
    rewrite (stream_true_false _ _ _ _ (huffman_stream_roundtrip t Mn HM HM1 Hlen code lits [] Hne Hok Hres)). cbn [rbind].
    rewrite app_nil_r. unfold zlen at 1. rewrite rev_length. fold (zlen lits). rewrite Z.eqb_refl. cbn [negb].
    unfold rev'. rewrite <- rev_alt, rev_involutive. reflexivity.
  Qed.
End One.

(** four streams with the 10-bit sizes (size format 1) -- the 14- and 18-bit formats are in C13_LitSection.v *)
Definition huf4_header10 (ty regen comp : Z) : list Z := le_bytes 3 (ty + 4 + 16 * regen + 16 * 1024 * comp).
Lemma huf4_header10_parse ty regen comp rest : (ty = 2 \/ ty = 3) -> 0 <= regen < 1024 -> 0 <= comp < 1024 ->
  lit_header_parse (huf4_header10 ty regen comp ++ rest) = ROk (3, ty, regen, Some comp, Some 4).
Proof. intros Hty Hr Hc. apply (compressed_header_parse 3 1 ty regen comp rest Hty); [tauto|exact Hr|exact Hc]. Qed.
