(** C03: executing sequences never panics -- for every list of sequences with non-negative lengths and positive offset
    values (all the sequence decoder produces), every literals buffer, every well-formed decode buffer with any dictionary
    content and every offset history. *)
Require Import Zrs.lib.RsPrelude Zrs.lib.ResFacts Zrs.gen.Generated Zrs.model.BlockDec.
Require Import Zrs.proofs.C06_Drain Zrs.proofs.C05_Block.
Open Scope Z_scope.

Lemma db_repeat_no_panic b off ml : db_wf b -> 0 <= ml -> 1 <= off -> no_panic (db_repeat b off ml).
Proof.
  intros W Hml Hoff. unfold db_repeat. assert (L : 0 <= db_len b) by (unfold db_wf in W; lia).
  destruct (Z.ltb_spec (db_len b) off) as [Hlt|Hge].
  - destruct (db_total_out b <=? db_window b); [|exact I].
    destruct (Z.ltb_spec (Z.of_nat (length (db_dict b))) (off - db_len b)) as [|Hd]; [exact I|].
    destruct (off - db_len b <? ml); [|exact I].
    cbn [db_len db_add_total db_append_raw]. rewrite skipn_length.
    destruct (Z.eqb_spec (db_len b + Z.of_nat (length (db_dict b) - Z.to_nat (Z.of_nat (length (db_dict b)) - (off - db_len b)))) 0) as [E|]; [lia|exact I].
  - destruct (Z.eqb_spec off 0); [lia|]. cbn [andb]. exact I.
Qed.

Lemma exec_match_post b off ml : db_wf b -> 0 <= ml -> 1 <= off -> post (exec_match b off ml) db_wf.
Proof.
  intros W Hml Hoff. eapply post_also; [|intros b' E _; exact (proj1 (exec_match_inv b off ml b' W Hml ltac:(lia) E))].
  unfold exec_match. destruct (0 <? ml); [apply db_repeat_no_panic; assumption|exact I].
Qed.

Lemma exec_loop_no_panic seqs : forall lits buf hist ssum,
  db_wf buf -> hist_ok hist -> Forall seq_ok seqs -> 0 <= ssum <= MAX_BLOCK_SIZE ->
  no_panic (exec_loop seqs lits buf hist ssum).
Proof.
  induction seqs as [|sq t IH]; intros lits buf hist ssum W Hh Hs Hsum; [exact I|]. rewrite exec_loop_cons. cbv zeta.
  inversion Hs as [|? ? (Hll & Hml & Hof) Hs']; subst.
  destruct (Z.ltb_spec MAX_BLOCK_SIZE (ssum + sq_ll sq + sq_ml sq)) as [|Hcap]; [exact I|].
  destruct (_ <? _)%nat; [exact I|].
  pose proof (offhist_ok (sq_of sq) (sq_ll sq) hist Hof Hh) as [Ha Hh1].
  destruct (do_offset_history (sq_of sq) (sq_ll sq) hist) as [off hist1]. cbn [fst snd] in *.
  destruct (Z.eqb_spec off 0) as [|Hnz]; [exact I|].
  eapply post_bind; [apply exec_match_post; [apply (push_inv buf _ W)|exact Hml|lia]|]. intros buf2 W2.
  rewrite max_block_size_val in *.
  destruct (Z.leb_spec (2 ^ 32) (ssum + sq_ml sq + sq_ll sq)) as [Hov|]; [change (2 ^ 32) with 4294967296 in Hov; lia|].
  apply IH; [exact W2|exact Hh1|exact Hs'|lia].
Qed.

Theorem execute_sequences_never_panics seqs lits buf hist :
  db_wf buf -> hist_ok hist -> Forall seq_ok seqs ->
  match execute_sequences seqs lits buf hist with
  | ROk (buf', hist') => db_wf buf' /\ hist_ok hist'
  | RErr _ => True
  | RPanic _ => False
  end.
Proof.
  intros W Hh Hs. apply post_also with (P := fun _ => True);
    [|intros [buf' hist'] E _; destruct (execute_sequences_inv _ _ _ _ _ _ W Hh Hs E) as (A & B & _); split; assumption].
  unfold execute_sequences.
  pose proof (exec_loop_no_panic seqs lits buf hist 0 W Hh Hs ltac:(rewrite max_block_size_val; lia)) as NP.
  destruct (exec_loop seqs lits buf hist 0) as [[[[buf1 hist1] rest] ssum]|e|e] eqn:El; cbn [rbind]; [|exact I|contradiction].
  destruct (exec_loop_inv _ _ _ _ _ _ _ _ _ W Hh Hs (Z.le_refl 0) El) as (W1 & Hh1 & M1 & L1 & Le1 & Cap1).
  destruct ((0 <? zlen rest) && (MAX_BLOCK_SIZE <? ssum + zlen rest)) eqn:Ecap; [exact I|]. cbv zeta.
  (* the assertion seq_sum == diff: both count the bytes appended, and they stay below 2^32 *)
  replace (if 0 <? zlen rest then db_push buf1 rest else buf1) with (db_push buf1 rest) by (destruct rest; [apply push_nil|reflexivity]).
  destruct (push_inv buf1 rest W1) as (_ & P2 & _). rewrite P2.
  assert (Hsm : ssum <= MAX_BLOCK_SIZE).
  { destruct seqs as [|sq t]; [injection El as _ _ _ <-; rewrite max_block_size_val; lia|apply Cap1; discriminate]. }
  rewrite max_block_size_val in *. unfold zlen in *. rewrite Z.mod_small by (change (2 ^ 32) with 4294967296; lia).
  replace (_ =? _) with true by lia. exact I.
Qed.
