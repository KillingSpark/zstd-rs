(** C12 / C13 / C16: the inverse law of backward bit streams.  FSE-coded sequences, FSE-coded Huffman weights and
    Huffman-coded literals are all written the same way: fields (value, width) are appended least significant bit
    first, a single 1 bit is appended, the last byte is filled with zeros; the decoder reads from the END of the byte
    string, skips the zero padding and the 1 bit, and reads the fields most significant bit first.  Theorem: for every
    list of fields, reading back yields the same values in reverse order, and the stream is then exactly exhausted. *)
Require Import Zrs.lib.RsPrelude Zrs.proofs.ModelFacts Zrs.lib.ListFacts Zrs.model.BitIO Zrs.model.BitStream.
Open Scope Z_scope.

Lemma byte_bits_lsb_val l : byte_bits_lsb (length l) (bits_val_lsb l) = l.
Proof.
  induction l as [|b t IH]; cbn [byte_bits_lsb bits_val_lsb length]; [reflexivity|].
  rewrite Z.odd_add_mul_2.
  replace ((b2z b + 2 * bits_val_lsb t) / 2) with (bits_val_lsb t) by (destruct b; cbn [b2z]; lia).
  rewrite IH. destruct b; reflexivity.
Qed.

Lemma val_of_byte_bits n : forall x, 0 <= x < 2 ^ Z.of_nat n -> bits_val_lsb (byte_bits_lsb n x) = x.
Proof.
  induction n as [|n IH]; intros x Hx; cbn [byte_bits_lsb bits_val_lsb]; [cbn in Hx; lia|].
  rewrite Nat2Z.inj_succ, Z.pow_succ_r in Hx by lia. rewrite IH by lia.
  unfold b2z. rewrite Zodd_mod. destruct (Zeq_bool (x mod 2) 1) eqn:E; [apply Zeq_bool_eq in E|apply Zeq_bool_neq in E]; lia.
Qed.

Lemma bits_of_bytes_of_bits fuel : forall l, (length l <= 8 * fuel)%nat -> (exists k, length l = (8 * k)%nat) ->
  bits_of_bytes_lsb (bytes_of_bits l fuel) = l.
Proof.
  induction fuel as [|f IH]; intros l Hl (k & Hk).
  - destruct l; [reflexivity|cbn in Hl; lia].
  - destruct l as [|b t] eqn:El; [reflexivity|]. rewrite <- El in *. cbn [bytes_of_bits].
    assert (l <> []) by (rewrite El; discriminate). destruct l as [|b' t'] eqn:El2; [congruence|]. rewrite <- El2 in *.
    unfold bits_of_bytes_lsb. cbn [flat_map]. fold (bits_of_bytes_lsb (bytes_of_bits (skipn 8 l) f)).
    assert (Hk1 : (1 <= k)%nat) by (destruct k; [rewrite El2 in Hk; cbn in Hk; lia|lia]).
    rewrite IH.
    + assert (L8 : length (firstn 8 l) = 8%nat) by (rewrite firstn_length; lia).
      rewrite <- L8 at 1. rewrite byte_bits_lsb_val. apply firstn_skipn.
    + rewrite skipn_length. lia.
    + exists (k - 1)%nat. rewrite skipn_length. lia.
Qed.

Lemma flat_map_rev {A B} (f : A -> list B) (l : list A) : flat_map (fun x => rev (f x)) (rev l) = rev (flat_map f l).
Proof.
  induction l as [|x t IH]; [reflexivity|]. cbn [rev flat_map]. rewrite flat_map_app, IH. cbn [flat_map].
  rewrite app_nil_r, rev_app_distr. reflexivity.
Qed.

Lemma bits_rev_is_rev l : bits_of_bytes_rev l = rev (bits_of_bytes_lsb l).
Proof. unfold bits_of_bytes_rev, bits_of_bytes_lsb, byte_bits_msb. rewrite rev'_rev. apply flat_map_rev. Qed.

Lemma bits_val_msb_acc_app a : forall acc b, bits_val_msb_acc acc (a ++ b) = bits_val_msb_acc (bits_val_msb_acc acc a) b.
Proof. induction a as [|x t IH]; intros acc b; cbn [app bits_val_msb_acc]; [reflexivity|]. apply IH. Qed.

Lemma bits_val_msb_rev l : bits_val_msb (rev l) = bits_val_lsb l.
Proof.
  unfold bits_val_msb. induction l as [|b t IH]; cbn [rev bits_val_lsb]; [reflexivity|].
  rewrite bits_val_msb_acc_app, IH. cbn [bits_val_msb_acc]. lia.
Qed.

Definition rd (s : list bit) : rbr := {| r_rest := s; r_left := Z.of_nat (length s); r_extra := 0 |}.

Lemma read_prefix (B R : list bit) : rbr_get_bits (rd (B ++ R)) (Z.of_nat (length B)) = (bits_val_msb B, rd R).
Proof.
  unfold rbr_get_bits, rd. cbn [r_rest r_left r_extra].
  destruct (Z.leb_spec (Z.of_nat (length B)) 0) as [H0|Hpos].
  - destruct B; [reflexivity|cbn in H0; lia].
  - rewrite app_length. destruct (Z.leb_spec (Z.of_nat (length B)) (Z.of_nat (length B + length R))) as [_|]; [|lia].
    rewrite Nat2Z.id, firstn_app, firstn_all, Nat.sub_diag, skipn_app, skipn_all, Nat.sub_diag. cbn [firstn skipn app].
    rewrite app_nil_r. f_equal. f_equal. lia.
Qed.

Lemma read_field n v (a : list bit) : 0 <= v < 2 ^ Z.of_nat n ->
  rbr_get_bits (rd (rev (a ++ byte_bits_lsb n v))) (Z.of_nat n) = (v, rd (rev a)).
Proof.
  intros Hv. rewrite rev_app_distr.
  pose proof (read_prefix (rev (byte_bits_lsb n v)) (rev a)) as H.
  rewrite rev_length, byte_bits_lsb_length in H. rewrite H.
  rewrite bits_val_msb_rev, val_of_byte_bits by exact Hv. reflexivity.
Qed.

Definition field_ok (f : field) : Prop := 0 <= fst f < 2 ^ Z.of_nat (snd f).

Fixpoint read_fields (r : rbr) (widths : list nat) : list Z * rbr :=
  match widths with
  | [] => ([], r)
  | n :: t => let '(v, r1) := rbr_get_bits r (Z.of_nat n) in let '(vs, r2) := read_fields r1 t in (v :: vs, r2)
  end.

Lemma stream_bits_aligned fs : exists k, length (stream_bits fs) = (8 * k)%nat.
Proof.
  unfold stream_bits. set (b := fields_bits fs). rewrite app_length. cbn [length]. rewrite repeat_length.
  exists (S (length b / 8)). lia.
Qed.

Lemma reader_of_stream fs : rbr_new (stream_bytes fs) = rd (rev (stream_bits fs)).
Proof.
  unfold rbr_new, rd, stream_bytes. destruct (stream_bits_aligned fs) as (k & Hk).
  set (bytes := bytes_of_bits (stream_bits fs) (S (length (stream_bits fs)))).
  assert (Hb : bits_of_bytes_lsb bytes = stream_bits fs).
  { apply bits_of_bytes_of_bits; [lia|exists k; exact Hk]. }
  assert (Hl : 8 * Z.of_nat (length bytes) = Z.of_nat (length (rev (stream_bits fs)))).
  { rewrite rev_length, <- Hb, bits_of_bytes_length. lia. }
  rewrite bits_rev_is_rev, Hb, Hl. reflexivity.
Qed.

Lemma read_one (c : bit) (R : list bit) : rbr_get_bits (rd (c :: R)) 1 = (b2z c, rd R).
Proof.
  pose proof (read_prefix [c] R) as H. cbn [length app] in H. change (Z.of_nat 1) with 1 in H. rewrite H.
  unfold bits_val_msb. cbn [bits_val_msb_acc]. f_equal.
Qed.

Lemma skip_zeros z : forall fuel sk R, (z < fuel)%nat -> sk + Z.of_nat z + 1 <= 8 ->
  skip_padding fuel (rd (repeat false z ++ true :: R)) sk = Some (rd R).
Proof.
  induction z as [|z IH]; intros fuel sk R Hf Hs; (destruct fuel as [|f]; [lia|]); cbn [repeat app skip_padding].
  - rewrite read_one. cbn [b2z]. cbn [Z.eqb orb]. destruct (Z.ltb_spec 8 (sk + 1)) as [|_]; [lia|reflexivity].
  - rewrite read_one. cbn [b2z]. change (0 =? 1) with false. cbn [orb].
    destruct (Z.ltb_spec 8 (sk + 1)) as [|_]; [lia|]. apply IH; lia.
Qed.

Lemma fields_bits_app a b : fields_bits (a ++ b) = fields_bits a ++ fields_bits b.
Proof. unfold fields_bits. apply flat_map_app. Qed.

Lemma fields_bits_snoc A v n : fields_bits (A ++ [(v, n)]) = fields_bits A ++ byte_bits_lsb n v.
Proof. rewrite fields_bits_app. unfold fields_bits at 2. cbn [flat_map fst snd]. rewrite app_nil_r. reflexivity. Qed.

Lemma read_fields_rev fs : Forall field_ok fs ->
  read_fields (rd (rev (fields_bits fs))) (map snd (rev fs)) = (map fst (rev fs), rd []).
Proof.
  induction fs as [|[v n] t IH] using rev_ind; intros H; [reflexivity|].
  apply Forall_app in H. destruct H as [Ht Hf]. inversion Hf as [|? ? Hf1 _]; subst.
  rewrite rev_app_distr. cbn [rev app map read_fields fst snd]. rewrite fields_bits_snoc.
  rewrite (read_field n v (fields_bits t) Hf1). rewrite (IH Ht). reflexivity.
Qed.

Lemma rev_repeat (n : nat) : rev (repeat false n) = repeat false n.
Proof.
  induction n as [|n IH]; [reflexivity|]. cbn [repeat rev]. rewrite IH. symmetry. apply repeat_cons.
Qed.

Lemma padding_skipped fs : rbr_skip_padding (rbr_new (stream_bytes fs)) = Some (rd (rev (fields_bits fs))).
Proof.
  rewrite reader_of_stream. unfold stream_bits. rewrite rev_app_distr. cbn [rev]. rewrite <- app_assoc. cbn [app].
  unfold rbr_skip_padding. rewrite rev_repeat. apply skip_zeros; lia.
Qed.

Theorem stream_inverse fs : Forall field_ok fs ->
  exists r, rbr_skip_padding (rbr_new (stream_bytes fs)) = Some r /\
            let '(vals, r') := read_fields r (map snd (rev fs)) in
            vals = map fst (rev fs) /\ rbr_bits_remaining r' = 0.
Proof.
  intros H. exists (rd (rev (fields_bits fs))). split; [apply padding_skipped|].
  rewrite (read_fields_rev fs H). split; reflexivity.
Qed.
