(** C11 / C10 / C07: frame initialisation -- exact header consumption, a fresh per-frame state, the window limit. *)
Require Import Zrs.lib.RsPrelude Zrs.lib.ResFacts Zrs.gen.Generated Zrs.model.Headers Zrs.model.BlockDec Zrs.model.FrameDec.
Require Import Zrs.proofs.C05_Block Zrs.proofs.C14_Headers Zrs.proofs.C07_Reuse.

Definition dict_ok (dd : dictionary) : Prop := hist_ok (d_hist dd).

Lemma le_val_nonneg l : bytes_ok l = true -> 0 <= le_val l.
Proof.
  induction l as [|b t IH]; cbn [le_val bytes_ok forallb]; [lia|]. intros H. apply andb_true_iff in H as [Hb Ht].
  unfold byte_ok in Hb. specialize (IH Ht). lia.
Qed.

Lemma bytes_ok_firstn n l : bytes_ok l = true -> bytes_ok (firstn n l) = true.
Proof. intros H. rewrite <- (firstn_skipn n l) in H. apply (bytes_ok_app _ _ H). Qed.
Lemma bytes_ok_skipn n l : bytes_ok l = true -> bytes_ok (skipn n l) = true.
Proof. intros H. rewrite <- (firstn_skipn n l) in H. apply (bytes_ok_app _ _ H). Qed.

Lemma take_spec n src a r : Headers.take n src = Some (a, r) -> src = a ++ r /\ length a = n.
Proof.
  unfold Headers.take. destruct (Nat.ltb (length src) n) eqn:E; [discriminate|]. intros H. inversion H; subst.
  apply Nat.ltb_ge in E. split; [symmetry; apply firstn_skipn|apply firstn_length_le; exact E].
Qed.

(** the last part of [read_frame_header], common to frames with and without a window descriptor; [n_wd] is the
    length of the window descriptor *)
Definition rfh_tail (d wd : Z) (r3 : list Z) (n_wd : Z) : fh_result :=
  match dictionary_id_bytes d with
  | RErr e => FhErr e
  | RPanic e => FhPanic e
  | ROk did_len =>
      match Headers.take (Z.to_nat did_len) r3 with
      | None => FhErr "DictionaryIdReadError"
      | Some (db, r4) =>
          let did := le_val db in
          let dict_id := if (did_len =? 0) || (did =? 0) then None else Some did in
          match frame_content_size_bytes d with
          | RErr e => FhErr e
          | RPanic e => FhPanic e
          | ROk fcs_len =>
              match Headers.take (Z.to_nat fcs_len) r4 with
              | None => FhErr "FrameContentSizeReadError"
              | Some (fb, _) =>
                  let fcs := le_val fb in
                  let fcs := if fcs_len =? 2 then fcs + 256 else fcs in
                  FhOk {| fh_desc := d; fh_wd := wd; fh_dict_id := dict_id; fh_fcs := fcs |}
                       (4 + 1 + n_wd + did_len + fcs_len)
              end
          end
      end
  end.

Lemma take_prefix n (a r : list Z) : length a = n -> Headers.take n (a ++ r) = Some (a, r).
Proof.
  intros <-. unfold Headers.take. rewrite app_length. destruct (Nat.ltb_spec (length a + length r) (length a)); [lia|].
  rewrite firstn_app, skipn_app, Nat.sub_diag, firstn_all, skipn_all. cbn [firstn skipn app]. rewrite app_nil_r. reflexivity.
Qed.

Lemma dictionary_id_bytes_post d : post (dictionary_id_bytes d) (fun n => 0 <= n <= 4).
Proof. unfold dictionary_id_bytes. cbv zeta. repeat apply post_if; cbn [post]; lia. Qed.
Lemma frame_content_size_bytes_post d : post (frame_content_size_bytes d) (fun n => 0 <= n <= 8).
Proof. unfold frame_content_size_bytes. cbv zeta. repeat apply post_if; cbn [post]; lia. Qed.

Lemma read_frame_header_eq src : read_frame_header src =
  match Headers.take 4 src with
  | None => FhErr "MagicNumberReadError"
  | Some (m, r1) =>
      if (407710288 <=? le_val m) && (le_val m <=? 407710303) then
        match Headers.take 4 r1 with
        | None => FhErr "FrameDescriptorReadError"
        | Some (l, _) => FhSkip (le_val m) (le_val l)
        end
      else if negb (le_val m =? MAGIC_NUM) then FhErr "BadMagicNumber"
      else
        match Headers.take 1 r1 with
        | None => FhErr "FrameDescriptorReadError"
        | Some (dl, r2) =>
            if single_segment_flag (znth dl 0) then rfh_tail (znth dl 0) 0 r2 0
            else match Headers.take 1 r2 with
                 | None => FhErr "WindowDescriptorReadError"
                 | Some (w, r3) => rfh_tail (znth dl 0) (znth w 0) r3 1
                 end
        end
  end.
Proof.
  unfold read_frame_header, rfh_tail. destruct (Headers.take 4 src) as [[m r1]|]; [|reflexivity].
  destruct (_ && _); [reflexivity|]. destruct (negb _); [reflexivity|].
  destruct (Headers.take 1 r1) as [[dl r2]|]; [|reflexivity]. cbv zeta.
  destruct (single_segment_flag _); [reflexivity|]. destruct (Headers.take 1 r2) as [[w r3]|]; reflexivity.
Qed.

(** the header reader never panics, and when it does not fail it has read exactly a prefix [hd] of the source, of
    the length it reports: it returns the same for every source that starts with [hd] *)
Lemma rfh_tail_reads d wd r3 n_wd :
  match rfh_tail d wd r3 n_wd with
  | FhOk h n =>
      exists tl rest, r3 = tl ++ rest /\ n = 5 + n_wd + Z.of_nat (length tl) /\ Z.of_nat (length tl) <= 12 /\
        fh_wd h = wd /\ (bytes_ok tl = true -> 0 <= fh_fcs h) /\ forall t, rfh_tail d wd (tl ++ t) n_wd = FhOk h n
  | FhErr _ => True
  | _ => False
  end.
Proof.
  unfold rfh_tail. pose proof (dictionary_id_bytes_post d) as Hdl.
  destruct (dictionary_id_bytes d) as [did_len|e|e]; [cbn [post] in Hdl|exact I|exact Hdl].
  destruct (Headers.take (Z.to_nat did_len) r3) as [[db r4]|] eqn:T4; [|exact I]. destruct (take_spec _ _ _ _ T4) as [-> L4].
  pose proof (frame_content_size_bytes_post d) as Hfl.
  destruct (frame_content_size_bytes d) as [fcs_len|e|e]; [cbn [post] in Hfl|exact I|exact Hfl].
  destruct (Headers.take (Z.to_nat fcs_len) r4) as [[fb r5]|] eqn:T5; [|exact I]. destruct (take_spec _ _ _ _ T5) as [-> L5].
  exists (db ++ fb), r5. rewrite <- app_assoc, app_length. cbn [fh_wd fh_fcs].
  split; [reflexivity|]. split; [lia|]. split; [lia|]. split; [reflexivity|]. split.
  - intros B. pose proof (le_val_nonneg fb (proj2 (bytes_ok_app _ _ B))). destruct (fcs_len =? 2); lia.
  - intros t. rewrite <- app_assoc, (take_prefix _ db _ L4), (take_prefix _ fb _ L5). reflexivity.
Qed.

Lemma read_frame_header_reads src :
  match read_frame_header src with
  | FhOk h n =>
      exists hd rest, src = hd ++ rest /\ Z.of_nat (length hd) = n /\ 5 <= n <= 18 /\
        (bytes_ok hd = true -> 0 <= fh_fcs h /\ 0 <= fh_wd h < 256) /\ forall t, read_frame_header (hd ++ t) = FhOk h n
  | FhSkip m l => exists hd rest, src = hd ++ rest /\ length hd = 8%nat /\ forall t, read_frame_header (hd ++ t) = FhSkip m l
  | FhErr _ => True
  | FhPanic _ => False
  end.
Proof.
  rewrite read_frame_header_eq.
  destruct (Headers.take 4 src) as [[m r1]|] eqn:T1; [|exact I]. destruct (take_spec _ _ _ _ T1) as [-> L1].
  destruct (_ && _) eqn:Esk.
  { destruct (Headers.take 4 r1) as [[l r2]|] eqn:T2; [|exact I]. destruct (take_spec _ _ _ _ T2) as [-> L2].
    exists (m ++ l), r2. rewrite <- app_assoc, app_length. split; [reflexivity|]. split; [lia|].
    intros t. rewrite read_frame_header_eq, <- app_assoc, (take_prefix 4 m _ L1), Esk, (take_prefix 4 l _ L2). reflexivity. }
  destruct (negb _) eqn:Emg; [exact I|].
  destruct (Headers.take 1 r1) as [[dl r2]|] eqn:T2; [|exact I]. destruct (take_spec _ _ _ _ T2) as [-> L2].
  set (d := znth dl 0). destruct (single_segment_flag d) eqn:Ess.
  - pose proof (rfh_tail_reads d 0 r2 0) as T. destruct (rfh_tail d 0 r2 0) as [h n|? ?|?|?]; [|destruct T|exact I|destruct T].
    destruct T as (tl & rest & -> & Hn & Htl & Hwd & Hf & Ht).
    exists (m ++ dl ++ tl), rest. rewrite <- !app_assoc, !app_length. split; [reflexivity|]. split; [lia|]. split; [lia|]. split.
    + intros B. rewrite Hwd. split; [|lia]. exact (Hf (proj2 (bytes_ok_app _ _ (proj2 (bytes_ok_app _ _ B))))).
    + intros t. rewrite read_frame_header_eq, <- !app_assoc, (take_prefix 4 m _ L1), Esk, Emg, (take_prefix 1 dl _ L2).
      fold d. rewrite Ess. apply Ht.
  - destruct (Headers.take 1 r2) as [[w r3]|] eqn:T3; [|exact I]. destruct (take_spec _ _ _ _ T3) as [-> L3].
    pose proof (rfh_tail_reads d (znth w 0) r3 1) as T.
    destruct (rfh_tail d (znth w 0) r3 1) as [h n|? ?|?|?]; [|destruct T|exact I|destruct T].
    destruct T as (tl & rest & -> & Hn & Htl & Hwd & Hf & Ht).
    exists (m ++ dl ++ w ++ tl), rest. rewrite <- !app_assoc, !app_length. split; [reflexivity|]. split; [lia|]. split; [lia|]. split.
    + intros B. rewrite Hwd. destruct (bytes_ok_app _ _ (proj2 (bytes_ok_app _ _ (proj2 (bytes_ok_app _ _ B))))) as [Bw Bt].
      split; [exact (Hf Bt)|exact (bytes_ok_nth w 0 Bw)].
    + intros t. rewrite read_frame_header_eq, <- !app_assoc, (take_prefix 4 m _ L1), Esk, Emg, (take_prefix 1 dl _ L2).
      fold d. rewrite Ess, (take_prefix 1 w _ L3). apply Ht.
Qed.

Lemma read_frame_header_consumed src h n : read_frame_header src = FhOk h n ->
  exists hd rest, src = hd ++ rest /\ Z.of_nat (length hd) = n /\ 5 <= n <= 18 /\
    (bytes_ok src = true -> 0 <= fh_fcs h /\ 0 <= fh_wd h < 256).
Proof.
  intros H. pose proof (read_frame_header_reads src) as R. rewrite H in R. destruct R as (hd & rest & -> & Ln & Hn & Hf & _).
  exists hd, rest. split; [reflexivity|]. split; [exact Ln|]. split; [exact Hn|]. intros B. exact (Hf (proj1 (bytes_ok_app _ _ B))).
Qed.

Lemma skip_front_len input mx m len : frame_front input mx = inr (m, len) -> (8 <= length input)%nat.
Proof.
  unfold frame_front. pose proof (read_frame_header_reads input) as R.
  destruct (read_frame_header input); try discriminate. intros _. destruct R as (hd & rest & -> & L & _).
  rewrite app_length. lia.
Qed.

Lemma window_nonneg h w : 0 <= fh_wd h < 256 -> 0 <= fh_fcs h -> fh_window_size h = ROk w -> 0 <= w.
Proof.
  intros Hwd Hf H. unfold fh_window_size in H. rewrite (window_size_spec _ _ _ Hwd) in H.
  destruct (single_segment_flag (fh_desc h)); inversion H; subst; [exact Hf|].
  pose proof (window_bounds (fh_wd h) Hwd). lia.
Qed.

Lemma frame_front_ok src mw h n w rest : frame_front src mw = inl (ROk (h, n, w, rest)) ->
  read_frame_header src = FhOk h n /\ fh_window_size h = ROk w /\ w <= mw /\ rest = drop_z n src.
Proof.
  unfold frame_front. destruct (read_frame_header src) as [h0 n0| | |]; try discriminate.
  destruct (fh_window_size h0) as [w0| |] eqn:Ew; cbn [rbind]; try discriminate.
  unfold check_window_size. destruct (Z.gtb_spec w0 mw) as [|Hw]; cbn [rbind]; [discriminate|].
  intros [= <- <- <- <-]. split; [reflexivity|]. split; [exact Ew|]. split; [exact Hw|reflexivity].
Qed.

Lemma scratch_new_ok w : scratch_ok (scratch_new w).
Proof. split; [reflexivity|]. exists 1, 4, 8. repeat split; lia. Qed.
Lemma scratch_reset_ok sc w : scratch_ok (scratch_reset sc w).
Proof. exact (scratch_new_ok w). Qed.
Lemma init_from_dict_ok sc dd : scratch_ok sc -> dict_ok dd -> scratch_ok (scratch_init_from_dict sc dd).
Proof. intros [W H] D. split; [exact W|exact D]. Qed.

Lemma reset_scratch_ok d w : scratch_ok (reset_scratch d w).
Proof. unfold reset_scratch. destruct (fd_state d); [apply scratch_reset_ok|apply scratch_new_ok]. Qed.
Lemma reset_scratch_buf d w : sc_buf (reset_scratch d w) = db_new w.
Proof. unfold reset_scratch. destruct (fd_state d); reflexivity. Qed.

Theorem fdec_reset_spec d src d' rest evs :
  bytes_ok src = true -> Forall dict_ok (fd_dicts d) ->
  fdec_reset d src = ROk (d', rest, evs) ->
  exists s hd, fd_state d' = Some s /\ st_ok s /\ src = hd ++ rest /\ fr_bytes_read s = Z.of_nat (length hd) /\
    db_rev (st_buf s) = [] /\ db_hashed_rev (st_buf s) = [] /\ 0 <= db_window (st_buf s) /\
    fr_finished s = false /\ fr_blocks s = 0 /\ fr_checksum s = None /\
    fd_dicts d' = fd_dicts d /\ fd_max_window d' = fd_max_window d /\
    fh_window_size (fr_header s) = ROk (db_window (st_buf s)) /\ db_window (st_buf s) <= fd_max_window d.
Proof.
  intros B HD H. destruct (fdec_reset_ok _ _ _ _ _ H) as (h & n & w & sc & ud & Ef & Hl & -> & _).
  destruct (frame_front_ok _ _ _ _ _ _ Ef) as (Eh & Ew & Hmax & ->).
  destruct (read_frame_header_consumed _ _ _ Eh) as (hd & rst & Hsrc & Ln & Hn & Hfields).
  destruct (Hfields B) as [Hf Hwd]. pose proof (window_nonneg h w Hwd Hf Ew) as Hw.
  assert (drop_z n src = rst) as ->.
  { unfold drop_z. rewrite Hsrc, <- Ln, Nat2Z.id, skipn_app, skipn_all, Nat.sub_diag. reflexivity. }
  (* the buffer of the new state is the empty one, whether or not a dictionary was loaded *)
  assert (scratch_ok sc /\ db_rev (sc_buf sc) = [] /\ db_hashed_rev (sc_buf sc) = [] /\ db_window (sc_buf sc) = w)
    as (Sok & S1 & S2 & S3).
  { destruct (load_dict_ok _ _ _ _ _ Hl) as [->|(dd & Hin & ->)].
    - split; [apply reset_scratch_ok|]. rewrite reset_scratch_buf. repeat split.
    - split; [apply init_from_dict_ok; [apply reset_scratch_ok|exact (proj1 (Forall_forall _ _) HD dd Hin)]|].
      cbn [scratch_init_from_dict sc_buf db_rev db_hashed_rev db_window]. rewrite reset_scratch_buf. repeat split. }
  exists (new_state h sc n ud), hd. unfold st_buf.
  cbn [fdec_with_state new_state fd_state fd_dicts fd_max_window fr_header fr_scratch fr_finished fr_blocks fr_bytes_read fr_checksum].
  rewrite S1, S2, S3. split; [reflexivity|]. split; [exact Sok|]. split; [exact Hsrc|]. split; [lia|].
  repeat (split; [reflexivity|]). split; [exact Hw|]. repeat (split; [reflexivity|]). split; [exact Ew|exact Hmax].
Qed.

(** C11: the window limit is applied at initialisation, identically on first use and on reuse *)
Theorem reset_rejects_large_window d src h n w :
  read_frame_header src = FhOk h n -> fh_window_size h = ROk w -> fd_max_window d < w ->
  fdec_reset d src = RErr "WindowSizeTooBig".
Proof.
  intros Eh Ew Hw. unfold fdec_reset, frame_front. rewrite Eh, Ew. cbn [rbind].
  unfold check_window_size. assert (w >? fd_max_window d = true) as -> by lia. reflexivity.
Qed.

Theorem reset_rejects_illegal_window d src h n e :
  read_frame_header src = FhOk h n -> fh_window_size h = RErr e -> fdec_reset d src = RErr e.
Proof. intros Eh Ew. unfold fdec_reset, frame_front. rewrite Eh, Ew. reflexivity. Qed.

Theorem reset_accepts_window d src h n w :
  read_frame_header src = FhOk h n -> fh_window_size h = ROk w -> w <= fd_max_window d -> fh_dict_id h = None ->
  exists d' evs, fdec_reset d src = ROk (d', drop_z n src, evs) /\
    (* the reservation of the window never precedes the check *)
    (evs = [EvHeader; EvWindowOk w] \/ evs = [EvHeader; EvWindowOk w; EvReserve w]).
Proof.
  intros Eh Ew Hw Hd. unfold fdec_reset, frame_front. rewrite Eh, Ew. cbn [rbind].
  unfold check_window_size. assert (w >? fd_max_window d = false) as -> by lia. cbn [rbind].
  destruct (fd_state d); cbv beta iota zeta; rewrite Hd; eexists _, _; (split; [reflexivity|]); [right|left]; reflexivity.
Qed.

Theorem reset_verdict_independent_of_history d1 d2 src :
  fd_max_window d1 = fd_max_window d2 -> fd_dicts d1 = fd_dicts d2 ->
  is_ok (fdec_reset d1 src) = is_ok (fdec_reset d2 src).
Proof.
  intros Hm Hd. rewrite !fdec_reset_eq, Hm, Hd.
  destruct (frame_front src (fd_max_window d2)) as [[[[[h n] w] rest]|e|e]|?]; try reflexivity. cbn [rbind].
  unfold load_dict. destruct (fh_dict_id h); [destruct (find _ (fd_dicts d2))|]; reflexivity.
Qed.

Theorem max_window_clamped d m : fd_max_window (fdec_set_max_window d m) = Z.min m MAX_WINDOW_SIZE.
Proof. reflexivity. Qed.
Theorem default_max_window : fd_max_window fdec_new = 128 * 1024 * 1024.
Proof. reflexivity. Qed.

Lemma accepted_window_within_limit d src d' rest evs :
  bytes_ok src = true -> Forall dict_ok (fd_dicts d) -> fdec_reset d src = ROk (d', rest, evs) ->
  exists s, fd_state d' = Some s /\ fh_window_size (fr_header s) = ROk (db_window (st_buf s)) /\
            db_window (st_buf s) <= fd_max_window d.
Proof.
  intros B HD H. destruct (fdec_reset_spec _ _ _ _ _ B HD H) as (s & hd & Hs & _&_&_&_&_&_&_&_&_&_&_& R).
  exists s. split; [exact Hs|exact R].
Qed.
