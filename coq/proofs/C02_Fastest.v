(** C02 / C16, level Fastest: the frame-level compressor composed with the decoder model, given what the block-level
    encoder must guarantee.  [Rel cs sc] relates the encoder state (matcher window, remembered Huffman table) to the
    decoder state it assumes on the other side.  The four hypotheses are exactly the obligations of compress_block and
    of the state handling around it; they are not discharged here but for the modelled block encoder, once for every
    matcher meeting the contract of C16 (C02_Concrete, section AnyEncoder), and every run validates the emitted frames
    with libzstd and this crate's decoder.  [H_fallback] is the obligation finding F5 violated (a discarded block's
    Huffman table must not stay "known to the decoder").  The theorem is the instance at level Fastest of the round
    trip of C02_Roundtrip: what is shown here is that every emitted block is an RLE, a raw or a compressed block that
    regenerates its input. *)
Require Import Zrs.lib.RsPrelude Zrs.gen.Generated Zrs.model.BlockDec Zrs.model.FrameDec Zrs.model.FrameEnc.
Require Import Zrs.proofs.C15_Frame Zrs.proofs.C01_Frame Zrs.proofs.C02_Roundtrip.
Open Scope Z_scope.

Definition sc_content (sc : scratch) : list Z := rev (db_rev (sc_buf sc)).

Section Fastest.
  Variable cstate : Type.
  Variable cblock : cstate -> list Z -> list Z * cstate.
  Variable cskip : cstate -> list Z -> cstate.
  Variable cfallback : cstate -> cstate.
  Variable Rel : cstate -> scratch -> Prop.

  (** a compressed block that is actually emitted decodes to its input and keeps the states related *)
  Hypothesis H_block : forall cs sc blk body cs', Rel cs sc -> blk <> [] -> Z.of_nat (length blk) <= 131072 ->
    cblock cs blk = (body, cs') -> all_same blk = false ->
    (length body < length blk)%nat -> Z.of_nat (length body) <= MAX_BLOCK_SIZE ->
    exists sc', decompress_block (Z.of_nat (length body)) sc body = ROk sc' /\
                sc_content sc' = sc_content sc ++ blk /\ Rel cs' sc'.
  (** a run goes out as an RLE block: the decoder only appends the bytes *)
  Hypothesis H_skip : forall cs sc blk, Rel cs sc -> blk <> [] -> Z.of_nat (length blk) <= 131072 ->
    all_same blk = true -> Rel (cskip cs blk) (sc_push_raw sc blk).
  (** a block whose compressed form was discarded goes out raw: the decoder only appends the bytes *)
  Hypothesis H_fallback : forall cs sc blk body cs', Rel cs sc -> blk <> [] -> Z.of_nat (length blk) <= 131072 ->
    cblock cs blk = (body, cs') ->
    Rel (cfallback cs') (sc_push_raw sc blk).

  Lemma fastest_block_item cs sc last blk b cs' : Rel cs sc -> blk <> [] -> Z.of_nat (length blk) <= 131072 ->
    enc_block cstate cblock cskip cfallback LFastest cs last blk = ROk (b, cs') ->
    exists it sc', item_ok it /\ block_bytes (bi_ty it) (bi_size it) last (bi_payload it) = ROk b /\
      item_run sc it = ROk sc' /\ sc_content sc' = sc_content sc ++ blk /\ Rel cs' sc'.
  Proof.
    intros HR Hne Hsz H. cbn [enc_block] in H. unfold enc_block_fastest in H.
    destruct (all_same blk) eqn:Eall.
    - apply block_bytes_with in H as [Hb ->].
      exists {| bi_ty := 1; bi_size := length blk; bi_payload := [nth 0 blk 0] |}, (sc_push_raw sc blk).
      split; [split; cbn [bi_ty bi_size]; lia|]. split; [exact Hb|].
      split; [rewrite item_run_rle, <- (all_same_repeat blk Eall); reflexivity|].
      split; [apply push_raw_content|apply H_skip; assumption].
    - destruct (cblock cs blk) as [body cs1] eqn:Ec.
      destruct ((length blk <=? length body)%nat || (MAX_BLOCK_SIZE <? Z.of_nat (length body))) eqn:Efb;
        apply block_bytes_with in H as [Hb ->].
      + exists {| bi_ty := 0; bi_size := length blk; bi_payload := blk |}, (sc_push_raw sc blk).
        split; [split; cbn [bi_ty bi_size]; lia|]. split; [exact Hb|]. split; [apply item_run_raw|].
        split; [apply push_raw_content|eapply H_fallback; eassumption].
      + apply Bool.orb_false_iff in Efb. destruct Efb as [E1 E2]. apply Nat.leb_gt in E1. apply Z.ltb_ge in E2.
        destruct (H_block cs sc blk body cs1 HR Hne Hsz Ec Eall E1 E2) as (sc' & Ed & Econt & HR').
        exists {| bi_ty := 2; bi_size := length body; bi_payload := body |}, sc'.
        split; [split; cbn [bi_ty bi_size]; [lia|exact E2]|]. split; [exact Hb|].
        split; [rewrite item_run_compressed; exact Ed|]. split; assumption.
  Qed.

  Variable creset : cstate -> cstate.
  (** compress() resets the matcher and forgets the Huffman table; the decoder starts from a new scratch state *)
  Variable Cinit : cstate -> Prop.
  Hypothesis H_reset : forall cs w, Cinit cs -> Rel (creset cs) (scratch_new w).

  (** level Fastest, all inputs / fragmentations / block sizes / reuse: if the block-level encoder meets the four
      obligations, the frame initialises a new decoder, decodes completely with nothing left over, regenerates the
      input and carries the checksum *)
  Theorem fastest_roundtrip slice wsize hash32 cs data script frame cs' r' :
    Cinit cs -> 1 <= Z.of_nat slice <= 131072 -> 1 <= wsize <= 2 ^ 27 ->
    (forall h x, hash32 = Some h -> length (h x) = 4%nat) ->
    compress_frame cstate cblock cskip cfallback creset LFastest slice wsize hash32 cs
      {| rd_data := data; rd_script := script |} = ROk (frame, cs', r') ->
    frame_decodes_to frame data hash32.
  Proof.
    intros Hinit. apply (roundtrip_given_block_items cstate cblock cskip cfallback creset LFastest Rel fastest_block_item).
    intros w. apply H_reset. exact Hinit.
  Qed.
End Fastest.
