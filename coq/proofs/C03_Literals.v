(** C03: the literals section never panics.  The header parser returns one of the shapes of the format for any bytes;
    decoding the section with a Huffman table that is unset or complete returns exactly the announced number of literals
    and consumes exactly the announced number of bytes, or an error. *)
Require Import Zrs.lib.RsPrelude Zrs.proofs.ModelFacts Zrs.lib.ResFacts Zrs.lib.ListFacts Zrs.lib.Sweep Zrs.gen.Generated Zrs.model.Headers Zrs.model.HufDec Zrs.model.BlockDec.
Require Import Zrs.proofs.C05_Block.
Require Import Zrs.proofs.C03_HufBuild.
Open Scope Z_scope.

Definition need_spec (r0 : Z) : Z :=
  let ty := r0 mod 4 in let sf := (r0 / 4) mod 4 in
  if ty <? 2 then (if (sf =? 0) || (sf =? 2) then 1 else if sf =? 1 then 2 else 3)
  else (if (sf =? 0) || (sf =? 1) then 3 else if sf =? 2 then 4 else 5).

Definition first_byte_check (r0 : Z) : bool :=
  match literals_section_type (r0 mod 4), header_bytes_needed r0 with
  | ROk ty, ROk need => (ty =? r0 mod 4) && (need =? need_spec r0)
  | _, _ => false
  end.
Lemma first_byte_sweep : sweep first_byte_check 0 256 = true.
Proof. vm_compute. reflexivity. Qed.
Lemma first_byte_facts r0 : 0 <= r0 < 256 ->
  literals_section_type (r0 mod 4) = ROk (r0 mod 4) /\ header_bytes_needed r0 = ROk (need_spec r0).
Proof.
  intros H. pose proof (sweep_spec _ _ _ first_byte_sweep r0 H) as F. unfold first_byte_check in F.
  destruct (literals_section_type (r0 mod 4)) as [ty|e|e]; try discriminate.
  destruct (header_bytes_needed r0) as [need|e|e]; try discriminate.
  apply andb_true_iff in F as [A B]. split; f_equal; lia.
Qed.

Lemma znth_byte raw i : bytes_ok raw = true -> 0 <= znth raw i < 256.
Proof. intros H. apply (bytes_ok_nth raw i H). Qed.

(** the shapes [parse_from_header] returns *)
Definition lit_shape (raw : list Z) (r : Z * Z * Z * option Z * option Z) : Prop :=
  let '(used, ty, regen, comp, streams) := r in
  1 <= used <= zlen raw /\ 0 <= regen /\
  ((ty = 0 \/ ty = 1) /\ comp = None /\ streams = None \/
   (ty = 2 \/ ty = 3) /\ (exists c, comp = Some c /\ 0 <= c) /\ (streams = Some 1 \/ streams = Some 4)).

Theorem lit_header_parse_shape raw : bytes_ok raw = true -> post (lit_header_parse raw) (lit_shape raw).
Proof.
  intros B. unfold lit_header_parse. destruct raw as [|r0 t] eqn:Eraw; [exact I|]. rewrite <- Eraw in *.
  assert (H0 : 0 <= r0 < 256). { pose proof (znth_byte raw 0 B) as Z0. rewrite Eraw in Z0. exact Z0. }
  destruct (first_byte_facts r0 H0) as (-> & ->). cbn [rbind]. unfold need_spec, lit_shape, zlen. cbv zeta.
  pose proof (znth_byte raw 1 B) as Z1. pose proof (znth_byte raw 2 B) as Z2.
  pose proof (znth_byte raw 3 B) as Z3. pose proof (znth_byte raw 4 B) as Z4.
  (* only the ranges of the two selectors and the signs of the fields matter: forget how they are computed *)
  assert (F : 0 <= r0 mod 4 < 4 /\ 0 <= (r0 / 4) mod 4 < 4 /\ 0 <= r0 / 8 /\ 0 <= r0 / 16 /\
              0 <= znth raw 1 mod 64 /\ 0 <= znth raw 1 / 64 /\ 0 <= znth raw 2 mod 4 /\ 0 <= znth raw 2 / 4 /\
              0 <= znth raw 2 mod 64 /\ 0 <= znth raw 2 / 64) by (clear - H0 Z1 Z2; lia).
  revert F. generalize (r0 mod 4) ((r0 / 4) mod 4) (r0 / 8) (r0 / 16) (znth raw 1 mod 64) (znth raw 1 / 64)
    (znth raw 2 mod 4) (znth raw 2 / 4) (znth raw 2 mod 64) (znth raw 2 / 64).
  intros ty sf a8 a16 m1 d1 m2 d2 m3 d3 F.
  assert (Hst : forall b : bool, Some (if b then 1 else 4) = Some 1 \/ Some (if b then 1 else 4) = Some 4) by (intros []; tauto).
  clear Eraw B H0. destruct (Z.ltb_spec ty 2) as [T|T].
  - replace ((ty =? 1) || (ty =? 0)) with true by lia.
    destruct (_ || _); [|destruct (sf =? 1)]; (destruct (Z.of_nat (length raw) <? _) eqn:L; [exact I|]);
      (split; [lia|]; split; [lia|]; left; split; [lia|tauto]).
  - replace ((ty =? 1) || (ty =? 0)) with false by lia.
    destruct (_ || _); [|destruct (sf =? 2)]; (destruct (Z.of_nat (length raw) <? _) eqn:L; [exact I|]);
      (split; [lia|]; split; [lia|]; right; split; [lia|]; split; [eexists; split; [reflexivity|lia]|apply Hst]).
Qed.

Definition sec_ok (sec : lit_section) : Prop :=
  0 <= ls_regen sec /\
  ((ls_type sec = 0 \/ ls_type sec = 1) /\ ls_comp sec = None \/
   (ls_type sec = 2 \/ ls_type sec = 3) /\ (exists c, ls_comp sec = Some c /\ 0 <= c) /\
   (ls_streams sec = Some 1 \/ ls_streams sec = Some 4)).
Definition sec_upper (sec : lit_section) : Z :=
  match ls_comp sec with Some x => x | None => if ls_type sec =? 1 then 1 else ls_regen sec end.

Lemma bytes_nonneg l : bytes_ok l = true -> Forall (fun b => 0 <= b) l.
Proof. unfold bytes_ok. rewrite forallb_forall, Forall_forall. intros H x Hx. specialize (H x Hx). unfold byte_ok in H. lia. Qed.

Theorem decode_literals_ok sec ht source :
  sec_ok sec -> huf_good ht -> bytes_ok source = true -> zlen source = sec_upper sec ->
  match decode_literals sec ht source with
  | ROk (ht', lits, used) => huf_good ht' /\ zlen lits = ls_regen sec /\ used = zlen source
  | RErr _ => True
  | RPanic _ => False
  end.
Proof.
  intros (Hreg & Hshape) G B Hup. unfold decode_literals, sec_upper in *.
  destruct Hshape as [(Hty & Hc)|(Hty & (c & Hc & Hc0) & Hst)].
  - rewrite Hc in Hup. destruct Hty as [E|E]; rewrite E in *; cbn [Z.eqb Pos.eqb] in *.
    + destruct (Z.ltb_spec (zlen source) (ls_regen sec)); [lia|]. split; [exact G|]. rewrite take_all by exact Hup. split; lia.
    + destruct source as [|b t]; [unfold zlen in Hup; cbn [length] in Hup; lia|]. split; [exact G|].
      unfold zlen in *. rewrite repeat_z_length. split; lia.
  - replace (ls_type sec =? 0) with false by lia. replace (ls_type sec =? 1) with false by lia. rewrite Hc in *.
    destruct (ls_streams sec) as [ns|] eqn:Ens; [|destruct Hst; discriminate].
    destruct (Z.ltb_spec (zlen source) c); [lia|]. cbv zeta. rewrite take_all by exact Hup.
    (* the table: built from the section, or the one in place, which is then not unset *)
    apply post_bind with (P := fun '(t', br) => huf_complete t' /\ huf_good t' /\ 0 <= br <= zlen source).
    { destruct (ls_type sec =? 2).
      - apply huf_build_decoder_good; [exact (proj1 G)|apply bytes_nonneg; exact B].
      - destruct (Z.eqb_spec (ht_max_bits ht) 0) as [|Hn]; [exact I|]. destruct G as (G1 & [G2|G2]); [contradiction|].
        split; [exact G2|]. split; [split; [exact G1|right; exact G2]|unfold zlen; lia]. }
    intros [t' br] (C & G' & Hbr).
    destruct (Z.ltb_spec (zlen source) br); [lia|].
    pose proof (drop_len br source Hbr) as Ld. remember (drop_z br source) as src1 eqn:Es1.
    (* the streams: a complete table decodes any of them, and the bytes add up to the whole source *)
    apply post_bind with (P := fun '(o, used) => used = zlen source).
    { assert (Hns : ns = 1 \/ ns = 4) by (destruct Hst as [E|E]; injection E; lia).
      destruct (Z.eqb_spec ns 4) as [E4|N4].
      - destruct (Z.ltb_spec (zlen src1) 6) as [|H6]; [exact I|]. cbv zeta.
        destruct (_ <? _); [exact I|].
        do 4 (eapply post_bind; [apply complete_stream_no_panic; exact C|intros ? _]).
        unfold post. rewrite (drop_len 6 src1) by lia. lia.
      - destruct (Z.eqb_spec ns 1) as [E1|]; [|lia].
        eapply post_bind; [apply complete_stream_no_panic; exact C|intros o1 _]. unfold post. lia. }
    intros [o used] ->.
    destruct (Z.eqb_spec (zlen o) (ls_regen sec)) as [Eo|]; cbn [negb]; [|exact I].
    split; [exact G'|]. split; [|reflexivity]. unfold zlen in *. rewrite rev'_rev, rev_length. exact Eo.
Qed.
