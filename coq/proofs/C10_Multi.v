(** C10: the multi-frame call is a homomorphism for concatenation.  If [decode_all] turns input [a] into [c1] and then,
    continuing with the decoder and the room that are left, input [b] into [c2], then it turns [a ++ b] into [c1 ++ c2]
    -- for all inputs (any number of frames and skippable frames in each part), every capacity and every decoder.
    One fact about a round of the frame loop ([frame_step]), and the same fact about the loops below and above it,
    carries the proof: a round that succeeds consumes input, and does the same -- leaving untouched what is appended to
    the input, adding the same bytes to whatever was written before -- in every context. *)
Require Import Zrs.lib.RsPrelude Zrs.proofs.ModelFacts Zrs.lib.ResFacts Zrs.lib.ListFacts Zrs.model.Headers Zrs.model.BlockDec Zrs.model.FrameDec.
Require Import Zrs.proofs.C07_Reuse Zrs.proofs.C10_Prefix Zrs.proofs.C11_Reset Zrs.proofs.C10_All.

(** every round consumes input (no invariant needed: it is how the readers are built) *)
Lemma read_exact_length n src a r : read_exact n src = Some (a, r) ->
  (Z.to_nat n <= length src)%nat /\ length r = (length src - Z.to_nat n)%nat.
Proof.
  unfold read_exact, zlen, drop_z. destruct (Z.ltb_spec (Z.of_nat (length src)) n); [discriminate|].
  intros [= _ <-]. rewrite skipn_length. lia.
Qed.

Lemma block_content_shrinks ty d c sc src sc' nb rest :
  decode_block_content ty d c sc src = ROk (sc', nb, rest) -> (length rest <= length src)%nat.
Proof.
  unfold decode_block_content.
  destruct (ty =? 1); [|destruct (ty =? 0); [|destruct (ty =? 2); [|discriminate]]];
    (destruct (read_exact _ src) as [[b r]|] eqn:E; [apply read_exact_length in E|discriminate]).
  3: destruct (decompress_block c sc b) as [x|e|e]; cbn [rbind]; try discriminate.
  all: intros [= _ _ <-]; lia.
Qed.

Lemma loop_shrinks fuel : forall s src strat lb bb s' rest,
  decode_blocks_loop fuel s src strat lb bb = ROk (s', rest) -> (length rest + 3 <= length src)%nat.
Proof.
  induction fuel as [|f IH]; intros s src strat lb bb s' rest H; [discriminate|]. cbn [decode_blocks_loop] in H.
  unfold read_block_header_src in H. destruct (read_exact 3 src) as [[hb r0]|] eqn:E3; [|discriminate].
  apply read_exact_length in E3.
  destruct (read_block_header _ _ _) as [[[[last ty] d] c]|e|e]; cbn [rbind] in H; try discriminate.
  destruct (decode_block_content ty d c _ r0) as [[[sc nb] r2]|e|e] eqn:Ec; cbn [rbind] in H; try discriminate.
  apply block_content_shrinks in Ec.
  destruct last.
  - destruct (checksum_flag _).
    + destruct (read_exact 4 r2) as [[ck r3]|] eqn:Ek; [|discriminate]. apply read_exact_length in Ek.
      injection H as _ <-. lia.
    + injection H as _ <-. lia.
  - destruct (match strat with SAll => false | _ => _ end).
    + injection H as _ <-. lia.
    + apply IH in H. lia.
Qed.

Lemma decode_blocks_shrinks d src strat d' rest fin :
  fdec_decode_blocks d src strat = ROk (d', rest, fin) -> (length rest + 3 <= length src)%nat.
Proof.
  unfold fdec_decode_blocks. destruct (fd_state d) as [s|]; [|discriminate]. intros H.
  bind_inv H. destruct a as [s' r]. injection H as _ <- _. exact (loop_shrinks _ _ _ _ _ _ _ _ E).
Qed.

Lemma reset_shrinks d src d1 rest ev : fdec_reset d src = ROk (d1, rest, ev) -> (length rest <= length src)%nat.
Proof.
  intros H. destruct (fdec_reset_ok _ _ _ _ _ H) as (h & n & w & _ & _ & Ef & _).
  destruct (frame_front_ok _ _ _ _ _ _ Ef) as (_ & _ & _ & ->). unfold drop_z. rewrite skipn_length. lia.
Qed.

(** a run consumes input; [c] is what it writes: the accumulator grows by it at the front, the room shrinks by as
    much; appended input, another accumulator and more fuel change nothing else *)
Lemma inner_run fuel : forall d input room w d' rest room' w',
  decode_all_inner fuel d input room w = ROk (d', rest, room', w') ->
  (length rest + 3 <= length input)%nat /\
  exists c, w' = rev_append c w /\ room' = room - zlen c /\
    forall w0 t k, decode_all_inner (fuel + k) d (input ++ t) room w0 = ROk (d', rest ++ t, room', rev_append c w0).
Proof.
  induction fuel as [|f IH]; intros d input room w d' rest room' w' H; [discriminate|].
  cbn [decode_all_inner] in H.
  destruct (fdec_decode_blocks d input _) as [[[d1 in1] fin]|e|e] eqn:Eb; cbn [rbind] in H; try discriminate.
  pose proof (decode_blocks_shrinks _ _ _ _ _ _ Eb) as L1.
  destruct (fdec_read d1 room) as [out d2] eqn:Er. destruct (negb _) eqn:En; [discriminate|].
  destruct (fdec_is_finished d2) eqn:Efin.
  - injection H as <- <- <- <-. split; [exact L1|]. exists out. split; [reflexivity|]. split; [reflexivity|].
    intros w0 t k. cbn [Nat.add decode_all_inner]. rewrite (decode_blocks_ext _ _ _ _ _ _ t Eb). cbn [rbind].
    rewrite Er, En, Efin. reflexivity.
  - destruct (IH _ _ _ _ _ _ _ _ H) as (L2 & c & -> & -> & Hw). split; [lia|]. exists (out ++ c).
    split; [apply eq_sym, rev_append_app|]. split; [unfold zlen; rewrite app_length; lia|].
    intros w0 t k. cbn [Nat.add decode_all_inner]. rewrite (decode_blocks_ext _ _ _ _ _ _ t Eb). cbn [rbind].
    rewrite Er, En, Efin, rev_append_app. apply Hw.
Qed.

Lemma inner_fuel_mono fuel : forall d input room w x k,
  decode_all_inner fuel d input room w = ROk x -> decode_all_inner (fuel + k) d input room w = ROk x.
Proof.
  intros d input room w [[[d' rest] room'] w'] k H. destruct (inner_run _ _ _ _ _ _ _ _ _ H) as (_ & c & -> & _ & E).
  specialize (E w [] k). rewrite !app_nil_r in E. exact E.
Qed.

(** one round of the frame loop: the same *)
Lemma step_run d a room w d' rest room' w' :
  frame_step d a room w = ROk (d', rest, room', w') ->
  (length rest < length a)%nat /\
  exists c, w' = rev_append c w /\ room' = room - zlen c /\
    forall w0 b, frame_step d (a ++ b) room w0 = ROk (d', rest ++ b, room', rev_append c w0).
Proof.
  unfold frame_step. destruct (frame_front a (fd_max_window d)) as [r|[m len]] eqn:Ef.
  - destruct (fdec_reset d a) as [[[d1 in1] ev]|e|e] eqn:Er; cbn [rbind]; try discriminate. intros Ein.
    destruct (inner_run _ _ _ _ _ _ _ _ _ Ein) as (L & c & -> & -> & Hw).
    pose proof (reset_shrinks _ _ _ _ _ Er) as L0. split; [lia|]. exists c. split; [reflexivity|]. split; [reflexivity|].
    intros w0 b. destruct (fdec_reset_ok _ _ _ _ _ Er) as (h & n & ww & _ & _ & Ef' & _).
    rewrite (frame_front_ext _ _ _ _ _ _ b Ef'), (fdec_reset_ext _ _ _ _ _ b Er). cbn [rbind].
    rewrite app_length. apply (Hw w0 b (length b)).
  - pose proof (skip_front_len _ _ _ _ Ef) as L8.
    destruct (Z.ltb_spec (zlen (drop_z 8 a)) len) as [|Hlen]; [discriminate|]. intros [= <- <- <- <-].
    split; [unfold drop_z; rewrite !skipn_length; lia|]. exists []. split; [reflexivity|]. split; [cbn; lia|].
    intros w0 b. rewrite (skip_front_ext _ _ _ _ b Ef), !drop_z_app by (unfold zlen in *; lia).
    destruct (Z.ltb_spec (zlen (drop_z 8 a ++ b)) len) as [Hbad|_]; [|reflexivity].
    unfold zlen in *. rewrite app_length in Hbad. lia.
Qed.

Lemma outer_fuel_indep f1 : forall f2 d input room w, (length input < f1)%nat -> (length input < f2)%nat ->
  decode_all_outer f1 d input room w = decode_all_outer f2 d input room w.
Proof.
  induction f1 as [|f1 IH]; intros f2 d input room w H1 H2; [lia|]. destruct f2 as [|f2]; [lia|].
  destruct input as [|x t]; [reflexivity|]. rewrite !outer_step by discriminate.
  destruct (frame_step d (x :: t) room w) as [[[[d1 in1] room1] w1]|e|e] eqn:Es; cbn [rbind]; try reflexivity.
  apply step_run in Es. apply IH; lia.
Qed.

(** decoding [a ++ b] continues, after [a] has produced [c], as decoding [b] with the decoder, room and output reached *)
Lemma outer_run fa : forall d a room w d1 o1,
  decode_all_outer fa d a room w = ROk (d1, o1) ->
  exists c, o1 = rev' w ++ c /\
    forall w0 b fb, (length (a ++ b) < fb)%nat ->
      decode_all_outer fb d (a ++ b) room w0 = decode_all_outer (S (S (length b))) d1 b (room - zlen c) (rev_append c w0).
Proof.
  induction fa as [|f IH]; intros d a room w d1 o1 H; [discriminate|]. destruct a as [|x t].
  - injection H as <- <-. exists []. split; [rewrite app_nil_r; reflexivity|].
    intros w0 b fb Hfb. rewrite Z.sub_0_r. apply outer_fuel_indep; [exact Hfb|lia].
  - rewrite outer_step in H by discriminate. bind_inv H. destruct a as [[[d2 in1] room2] w2].
    destruct (step_run _ _ _ _ _ _ _ _ E) as (L & c1 & -> & -> & Hs). destruct (IH _ _ _ _ _ _ H) as (c2 & -> & Hcont).
    exists (c1 ++ c2). split; [rewrite rev'_rev_append, app_assoc; reflexivity|].
    intros w0 b fb Hfb. destruct fb as [|fb]; [lia|]. rewrite outer_step, Hs by discriminate. cbn [rbind].
    rewrite Hcont by (rewrite app_length in *; lia). rewrite rev_append_app. f_equal. unfold zlen. rewrite app_length. lia.
Qed.

Theorem decode_all_app d a b cap d1 c1 d2 c2 :
  fdec_decode_all d a cap = ROk (d1, c1) -> fdec_decode_all d1 b (cap - zlen c1) = ROk (d2, c2) ->
  fdec_decode_all d (a ++ b) cap = ROk (d2, c1 ++ c2).
Proof.
  unfold fdec_decode_all. intros Ha Hb.
  destruct (outer_run _ _ _ _ _ _ _ Ha) as (c & -> & Ha'). destruct (outer_run _ _ _ _ _ _ _ Hb) as (c' & -> & Hb').
  cbn [rev' rev_append app] in *. rewrite Ha' by lia.
  specialize (Hb' (rev_append c []) [] (S (S (length b)))). rewrite app_nil_r in Hb'. rewrite Hb' by lia.
  cbn [decode_all_outer length]. rewrite !rev'_rev_append. reflexivity.
Qed.

Fixpoint decode_parts (d : fdec) (cap : Z) (parts : list (list Z)) : option (fdec * list Z) :=
  match parts with
  | [] => Some (d, [])
  | p :: t =>
      match fdec_decode_all d p cap with
      | ROk (d1, c1) => match decode_parts d1 (cap - zlen c1) t with Some (d2, c2) => Some (d2, c1 ++ c2) | None => None end
      | _ => None
      end
  end.

Theorem decode_all_concat parts : forall d cap d' c,
  decode_parts d cap parts = Some (d', c) -> fdec_decode_all d (concat parts) cap = ROk (d', c).
Proof.
  induction parts as [|p t IH]; intros d cap d' c H; cbn [decode_parts concat] in *.
  - injection H as <- <-. reflexivity.
  - destruct (fdec_decode_all d p cap) as [[d1 c1]|e|e] eqn:E1; try discriminate.
    destruct (decode_parts d1 (cap - zlen c1) t) as [[d2 c2]|] eqn:E2; [|discriminate]. injection H as <- <-.
    apply (decode_all_app d p (concat t) cap d1 c1 d2 c2 E1). apply IH. exact E2.
Qed.

Theorem skippable_frame_is_skipped d f cap m len :
  frame_front f (fd_max_window d) = inr (m, len) -> zlen (drop_z 8 f) = len -> fdec_decode_all d f cap = ROk (d, []).
Proof.
  intros Ef Hl. pose proof (skip_front_len _ _ _ _ Ef) as L8. unfold fdec_decode_all.
  rewrite outer_step by (intros ->; cbn in L8; lia). unfold frame_step. rewrite Ef.
  destruct (Z.ltb_spec (zlen (drop_z 8 f)) len); [lia|]. cbn [rbind].
  replace (drop_z len (drop_z 8 f)) with (@nil Z); [reflexivity|].
  symmetry. unfold drop_z, zlen in *. apply skipn_all2. lia.
Qed.
