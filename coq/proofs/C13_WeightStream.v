(** C13: the FSE-compressed Huffman weights.  The compressor writes the weights with two interleaved FSE states sharing
    one table ([FSEEncoder::encode_interleaved]); the decoder's two-state loop ([fse_weights_loop]) reads them back in
    order and stops exactly when the stream is exhausted (which needs every state to carry at least one bit -- the
    "avoid zero bits" option of the table builder). *)
Require Import Zrs.lib.RsPrelude Zrs.lib.ListFacts Zrs.model.BitIO Zrs.model.BitStream Zrs.model.FseDec Zrs.model.HufDec Zrs.model.SeqEnc Zrs.model.WeightEnc.
Require Import Zrs.proofs.C12_Stream Zrs.proofs.C12_SeqStream.
Open Scope Z_scope.

Lemma tfields_step s0 s1 s2 r : tfields (s0 :: s1 :: s2 :: r) = (es_index s2 - es_base s0, es_bits s0) :: tfields (s1 :: s2 :: r).
Proof. reflexivity. Qed.

Definition ent (sym : Z) (s : enc_state) : fse_entry := {| e_base := es_base s; e_bits := Z.of_nat (es_bits s); e_sym := sym |}.

Lemma beyond_reads n : 1 <= n -> rbr_get_bits (rd []) n = (0, {| r_rest := []; r_left := 0; r_extra := n |}).
Proof.
  intros Hn. unfold rbr_get_bits, rd. cbn [r_left r_rest r_extra length]. destruct (Z.leb_spec n 0); [lia|].
  destruct (Z.leb_spec n (Z.of_nat 0)); [lia|]. cbn. f_equal. f_equal. lia.
Qed.

Section W.
  Variables (D : fse_table) (E : enc_table) (syms : list Z).
  Hypothesis Hag : agree D E syms.
  Hypothesis Hbits : forall sym, In sym syms -> (1 <= es_bits (et_start E sym))%nat /\ forall idx, 0 <= idx < t_len D -> (1 <= es_bits (et_next E sym idx))%nat.
  Hypothesis Hbase : forall sym, In sym syms -> es_base (et_start E sym) < t_len D.

  Definition good (sym : Z) (s : enc_state) : Prop :=
    entry_is D sym s /\ (1 <= es_bits s)%nat /\ es_base s < t_len D.

  Lemma sts_good data : Forall (fun x => In x syms) data -> Forall2 good data (sts E data).
  Proof.
    induction data as [|x t IH]; intros H; cbn [sts]; [constructor|]. inversion H as [|? ? Hx Ht]; subst. specialize (IH Ht).
    constructor; [|exact IH].
    destruct Hag as (_ & _ & G). destruct (G x Hx) as (Gs & Gn). destruct (Hbits x Hx) as (Bs & Bn).
    destruct (sts E t) as [|s1 [|s2 r]] eqn:Es.
    - split; [exact Gs|]. split; [exact Bs|apply Hbase; exact Hx].
    - split; [exact Gs|]. split; [exact Bs|apply Hbase; exact Hx].
    - (* the state two places later is a good state: its index is in range *)
      assert (Hi : 0 <= es_index s2 < t_len D).
      { inversion IH as [|? ? ? ? _ IH1]; subst. inversion IH1 as [|? ? ? ? G2 _]; subst. destruct G2 as ((Hi & _) & _). exact Hi. }
      destruct (Gn _ Hi) as (Ge & Hr). split; [exact Ge|]. split; [apply Bn; exact Hi|lia].
  Qed.

  (** a failing update: the stream is exhausted, the state carries a bit, so the reader goes negative *)
  Lemma update_beyond sym s : good sym s ->
    exists st' br', fse_update_state D (ent sym s) (rd []) = ROk (st', br') /\ rbr_bits_remaining br' <= -1.
  Proof.
    intros (_ & Hb & Hbs). unfold fse_update_state, ent. cbn [e_bits e_base].
    rewrite beyond_reads by lia. destruct (Z.leb_spec (t_len D) (es_base s + 0)); [lia|].
    eexists _, _. split; [reflexivity|]. unfold rbr_bits_remaining. cbn [r_left r_extra]. lia.
  Qed.

  Lemma ent_is sym s : entry_is D sym s -> nth_e (t_decode D) (es_index s) = ent sym s.
  Proof. intros (_ & He). exact He. Qed.

  (** a real transition from the state of [x] into the state [s2] two places later; [F] is the field list still to be read *)
  Lemma update_real x s0 s2 A F : In x syms -> 0 <= es_index s2 < t_len D -> s0 = et_next E x (es_index s2) ->
    F = A ++ [(es_index s2 - es_base s0, es_bits s0)] ->
    fse_update_state D (ent x s0) (rd (rev (fields_bits F))) = ROk (nth_e (t_decode D) (es_index s2), rd (rev (fields_bits A))).
  Proof. intros Hx Hi -> ->. apply (update_reads D E syms x _ (es_index s2) A Hag Hx Hi eq_refl). Qed.

  Lemma rd_nonneg s : rbr_bits_remaining (rd s) <=? -1 = false.
  Proof. rewrite rd_remaining. apply Z.leb_gt. lia. Qed.

  Lemma weights_loop_reads rest : forall a b fuel acc n s0 s1 R,
    Forall (fun x => In x syms) (a :: b :: rest) -> n + Z.of_nat (length rest) <= 255 -> (length rest < fuel)%nat ->
    sts E (a :: b :: rest) = s0 :: s1 :: R ->
    fse_weights_loop fuel D (ent a s0) (ent b s1) (rd (rev (fields_bits (rev (tfields (s0 :: s1 :: R)))))) acc n
    = ROk (rev (a :: b :: rest) ++ acc).
  Proof.
    induction rest as [|c|c e rest IH] using list_pair_ind; intros a b fuel acc n s0 s1 R Hin Hn Hf ES;
      pose proof (sts_good _ Hin) as HG; rewrite ES in HG; cbn [sts] in ES; injection ES as <- <- <-;
      inversion Hin as [|? ? Ha Hin1]; subst; inversion Hin1 as [|? ? Hb Hin2]; subst;
      inversion HG as [|? ? ? ? Ga HG1]; subst; inversion HG1 as [|? ? ? ? Gb HG2]; subst;
      (destruct fuel as [|f]; [cbn [length] in Hf; lia|]); cbn [fse_weights_loop].
    - (* no symbol left: the update of the first state goes beyond the stream *)
      cbn [sts tfields rev fields_bits flat_map].
      destruct (update_beyond a _ Ga) as (st' & br' & -> & Hneg). cbn [rbind e_sym ent].
      destruct (Z.leb_spec (rbr_bits_remaining br') (-1)); [|lia]. reflexivity.
    - (* one left: one transition, then the second state's update goes beyond *)
      cbn [sts] in HG2 |- *. inversion HG2 as [|? ? ? ? Gc _]; subst. cbn [tfields rev app].
      rewrite (update_real a _ (et_start E c) [] _ Ha (proj1 (proj1 Gc)) eq_refl) by reflexivity. cbn [rbind].
      rewrite rd_nonneg. cbn [fields_bits flat_map rev]. rewrite (ent_is c _ (proj1 Gc)).
      destruct (update_beyond b _ Gb) as (st' & br' & -> & Hneg). cbn [rbind e_sym ent].
      destruct (Z.leb_spec (rbr_bits_remaining br') (-1)); [|lia]. reflexivity.
    - (* at least two left: two transitions, then the loop continues two places further *)
      cbn [sts] in HG2 |- *. inversion HG2 as [|? ? ? ? Gc HG3]; subst. inversion HG3 as [|? ? ? ? Ge _]; subst.
      rewrite !tfields_step. cbn [rev].
      rewrite (update_real a _ _ _ _ Ha (proj1 (proj1 Gc)) eq_refl) by reflexivity. cbn [rbind]. rewrite rd_nonneg.
      rewrite (update_real b _ _ _ _ Hb (proj1 (proj1 Ge)) eq_refl) by reflexivity. cbn [rbind]. rewrite rd_nonneg.
      destruct (Z.ltb_spec 255 (n + 2)) as [Hbad|_]; [cbn [length] in Hn; lia|].
      rewrite (ent_is c _ (proj1 Gc)), (ent_is e _ (proj1 Ge)). cbn [e_sym ent].
      specialize (IH c e f (b :: a :: acc) (n + 2)). cbn [sts] in IH.
      rewrite (IH _ _ _ Hin2 ltac:(cbn [length] in Hn; lia) ltac:(cbn [length] in Hf; lia) eq_refl).
      cbn [rev]. rewrite <- !app_assoc. reflexivity.
  Qed.
End W.

Theorem weight_stream_roundtrip D E syms data :
  agree D E syms ->
  (forall sym, In sym syms -> (1 <= es_bits (et_start E sym))%nat /\ forall idx, 0 <= idx < t_len D -> (1 <= es_bits (et_next E sym idx))%nat) ->
  (forall sym, In sym syms -> es_base (et_start E sym) < t_len D) ->
  (2 <= length data <= 257)%nat -> Forall (fun x => In x syms) data ->
  let cw := stream_bytes (weight_fields E data) in
  exists br0 s1 br1 s2 br2,
    rbr_skip_padding (rbr_new cw) = Some br0 /\ fse_init_state D br0 = ROk (s1, br1) /\ fse_init_state D br1 = ROk (s2, br2) /\
    fse_weights_loop (S (8 * length cw + 256)) D s1 s2 br2 [] 0 = ROk (rev data).
Proof.
  intros Hag Hbits Hbase Hl Hin cw.
  pose proof (sts_good D E syms Hag Hbits Hbase data Hin) as HG.
  destruct data as [|a [|b rest]]; try (cbn in Hl; lia).
  destruct (sts E (a :: b :: rest)) as [|s0 [|s1 R]] eqn:ES; try discriminate ES.
  pose proof (weights_loop_reads D E syms Hag Hbits Hbase rest a b (S (8 * length cw + 256)) [] 0 s0 s1 R Hin
                ltac:(cbn [length] in Hl; lia) ltac:(cbn [length] in Hl; lia) ES) as HL.
  inversion HG as [|? ? ? ? Ga HG1]; subst. inversion HG1 as [|? ? ? ? Gb _]; subst.
  unfold cw, weight_fields in *. rewrite ES in *. cbn [rev] in *. set (T := tfields (s0 :: s1 :: R)) in *.
  rewrite padding_skipped. eexists _, _, _, _, _. split; [reflexivity|].
  split; [apply (init_reads D E syms (es_index s0) _ Hag (proj1 (proj1 Ga)))|].
  split; [apply (init_reads D E syms (es_index s1) _ Hag (proj1 (proj1 Gb)))|].
  rewrite (ent_is D a _ (proj1 Ga)), (ent_is D b _ (proj1 Gb)). rewrite app_nil_r in HL. exact HL.
Qed.
