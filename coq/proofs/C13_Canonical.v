(** C13: the structure of every decoding table [build_table_from_weights] returns.  Each symbol with a non-zero weight
    owns one aligned block of 2^(max_bits - length) consecutive entries, all carrying that symbol and that code length;
    the blocks of different symbols are disjoint and together cover the table.  So the table is the decoding table of a
    complete prefix code (the canonical one: blocks in order of decreasing length, then increasing symbol), and the code
    word read off the table for a symbol -- its first index, shortened to the code length -- is resolved by exactly the
    indices that start with it. *)
Require Import Zrs.lib.RsPrelude Zrs.lib.ListFacts Zrs.proofs.ModelFacts Zrs.model.BitIO Zrs.model.FseDec Zrs.model.HufDec Zrs.model.HufEnc.
Require Import Zrs.proofs.C03_HufTable Zrs.proofs.C13_EncCanon.
Require Import FinFun.
Open Scope Z_scope.

Definition blk := (Z * Z * nat)%type.      (* symbol, first index, log2 of the block size *)
Definition blk_sym (b : blk) : Z := fst (fst b).

Lemma cnt_code_lengths M W : forall b, 1 <= b <= M -> Forall (fun w => 0 <= w <= M) W ->
  cnt b (map (fun w => if 0 <? w then M + 1 - w else 0) W) = cnt (M + 1 - b) W.
Proof.
  intros b Hb H. induction H as [|x t Hx _ IH]; [reflexivity|]. cbn [map cnt]. rewrite IH.
  destruct (Z.ltb_spec 0 x) as [Hp|Hz].
  - destruct (Z.eqb_spec (M + 1 - x) b); destruct (Z.eqb_spec x (M + 1 - b)); lia.
  - destruct (Z.eqb_spec 0 b); destruct (Z.eqb_spec x (M + 1 - b)); lia.
Qed.

Lemma region_below M ranks W : 1 <= M -> Forall (fun w => 0 <= w <= M) W ->
  (forall b, 0 <= b -> nth_z ranks b = cnt b (map (fun w => if 0 <? w then M + 1 - w else 0) W)) ->
  forall n, (n <= Z.to_nat M)%nat -> region M ranks n = below n W.
Proof.
  intros HM Hw Hr. induction n as [|n IH]; intros Hn; cbn [region below]; [reflexivity|]. rewrite IH by lia.
  rewrite Hr by lia. rewrite cnt_code_lengths by (try exact Hw; lia). f_equal. f_equal. f_equal. lia.
Qed.

Lemma code_lengths_in_range M W : Forall (fun w => 0 <= w <= M) W ->
  Forall (fun b => 0 <= b <= M) (map (fun w => if 0 <? w then M + 1 - w else 0) W).
Proof. intros H. apply Forall_map. eapply Forall_impl; [|exact H]. intros w Hw. cbv beta in *. destruct (0 <? w) eqn:E; lia. Qed.

(** the checks of [build_table_from_weights] before it assigns codes; [2 ^ M - k] is the share of the last symbol,
    whose weight the description leaves out *)
Definition accepts (ws : list Z) : bool :=
  let k := kraft ws in let M := highest_bit_set k in
  forallb (fun w => w <=? MAX_MAX_NUM_BITS) ws && negb (k =? 0) && is_pow2 (2 ^ M - k) && (M <=? MAX_MAX_NUM_BITS).

Lemma build_table_refuses ws : accepts ws = false -> exists e, build_table_from_weights ws = RErr e.
Proof.
  unfold accepts, build_table_from_weights. rewrite weight_sum_eq, Z.add_0_l. intros H.
  destruct (forallb _ ws); cbn [rbind andb] in *; [|eauto].
  destruct (kraft ws =? 0); cbn [negb andb] in *; [eauto|].
  destruct (is_pow2 _); cbn [negb andb] in *; [|eauto].
  rewrite Z.ltb_antisym, H. cbn [negb]. eauto.
Qed.

Section Blocks.
  Variables (M : Z) (bits ranks : list Z).
  Hypothesis HM : 1 <= M.
  Hypothesis Hbits : Forall (fun b => 0 <= b <= M) bits.
  Hypothesis Gr : forall b, 0 <= b -> nth_z ranks b = cnt b bits.
  Let R (n : nat) : Z := region M ranks n.
  Hypothesis Htot : R (Z.to_nat M) = 2 ^ M.

  Lemma ranks_nonneg c : 0 <= nth_z ranks c.
  Proof.
    destruct (Z.ltb_spec c 0); [replace (nth_z ranks c) with (nth_z ranks 0) by (unfold nth_z; f_equal; lia)|]; rewrite Gr by lia; apply cnt_nonneg.
  Qed.

  Lemma R_mono a b : (a <= b)%nat -> R a <= R b.
  Proof. apply region_mono. exact ranks_nonneg. Qed.
  Lemma R_nonneg n : 0 <= R n.
  Proof. pose proof (R_mono 0 n ltac:(lia)) as H. unfold R in H at 1. cbn [region] in H. exact H. Qed.

  (** downwards from [R M = 2 ^ M]: the classes above n are made of larger blocks *)
  Lemma R_div : forall n, (n <= Z.to_nat M)%nat -> (R n mod 2 ^ Z.of_nat n = 0).
  Proof.
    assert (G : forall k n, (n + k = Z.to_nat M)%nat -> R n mod 2 ^ Z.of_nat n = 0).
    { induction k as [|k IH]; intros n Hn.
      - replace n with (Z.to_nat M) by lia. rewrite Htot. rewrite Z2Nat.id by lia. apply Z.mod_same. pose proof (Z.pow_pos_nonneg 2 M ltac:(lia) ltac:(lia)). lia.
      - specialize (IH (S n) ltac:(lia)). unfold R in *. cbn [region] in IH.
        assert (P : 0 < 2 ^ Z.of_nat n) by (apply Z.pow_pos_nonneg; lia).
        assert (E : 2 ^ Z.of_nat (S n) = 2 * 2 ^ Z.of_nat n) by (rewrite Nat2Z.inj_succ, Z.pow_succ_r by lia; reflexivity).
        rewrite E in IH.
        (* region n + c * 2^n = 0 mod 2 * 2^n  ->  region n = 0 mod 2^n *)
        apply Z.mod_divide in IH; [|lia]. destruct IH as (q & Hq).
        apply Z.mod_divide; [lia|]. exists (2 * q - nth_z ranks (M - Z.of_nat n)). lia. }
    intros n Hn. apply (G (Z.to_nat M - n)%nat). lia.
  Qed.

  Definition code_len (j : nat) : Z := nth j bits 0.
  Definition blk_class (j : nat) : nat := Z.to_nat (M - code_len j).
  Definition blk_base (j : nat) : Z := R (blk_class j) + cnt (code_len j) (firstn j bits) * 2 ^ Z.of_nat (blk_class j).
  Definition has_code (j : nat) : Prop := (j < length bits)%nat /\ 0 < code_len j.
  Definition in_blk (j : nat) (i : Z) : Prop := blk_base j <= i < blk_base j + 2 ^ Z.of_nat (blk_class j).

  Lemma has_code_len j : has_code j -> 1 <= code_len j <= M /\ (blk_class j < Z.to_nat M)%nat /\ M - Z.of_nat (blk_class j) = code_len j.
  Proof.
    intros (Hj & Hp). pose proof (proj1 (Forall_forall _ _) Hbits _ (nth_In bits 0 Hj)) as Hr. unfold blk_class, code_len in *. lia.
  Qed.

  Lemma class_end j : has_code j -> R (S (blk_class j)) = R (blk_class j) + cnt (code_len j) bits * 2 ^ Z.of_nat (blk_class j).
  Proof. intros U. destruct (has_code_len j U) as (Hl & _ & E). unfold R. cbn [region]. rewrite E, Gr by lia. reflexivity. Qed.

  Lemma base_bounds j : has_code j -> R (blk_class j) <= blk_base j /\ blk_base j + 2 ^ Z.of_nat (blk_class j) <= R (S (blk_class j)).
  Proof.
    intros U. rewrite (class_end j U). unfold blk_base. destruct U as (Hj & _).
    pose proof (cnt_firstn_S bits j Hj) as E. pose proof (cnt_firstn_all (code_len j) bits (S j)) as L. fold (code_len j) in E.
    pose proof (cnt_nonneg (code_len j) (firstn j bits)). pose proof (Z.pow_pos_nonneg 2 (Z.of_nat (blk_class j)) ltac:(lia) ltac:(lia)). nia.
  Qed.

  Lemma base_aligned j : has_code j -> blk_base j mod 2 ^ Z.of_nat (blk_class j) = 0.
  Proof.
    intros U. destruct (has_code_len j U) as (_ & Hc & _). unfold blk_base. rewrite Z_mod_plus_full.
    apply R_div. lia.
  Qed.

  Lemma blocks_apart j1 j2 i : has_code j1 -> has_code j2 -> (j1 < j2)%nat -> in_blk j1 i -> ~ in_blk j2 i.
  Proof.
    intros U1 U2 Hlt. unfold in_blk. pose proof (base_bounds j1 U1) as B1. pose proof (base_bounds j2 U2) as B2.
    destruct (has_code_len j1 U1) as (_ & _ & E1). destruct (has_code_len j2 U2) as (_ & _ & E2).
    destruct (lt_eq_lt_dec (blk_class j1) (blk_class j2)) as [[H|H]|H].
    - pose proof (R_mono (S (blk_class j1)) (blk_class j2) ltac:(lia)). unfold R in *. lia.
    - assert (El : code_len j2 = code_len j1) by lia. unfold blk_base. rewrite <- H, El.
      pose proof (cnt_firstn_le (code_len j1) bits (S j1) j2 ltac:(lia)) as L. unfold code_len in L at 1. rewrite (cnt_firstn_S bits j1 (proj1 U1)) in L. fold (code_len j1) in L.
      pose proof (Z.pow_pos_nonneg 2 (Z.of_nat (blk_class j1)) ltac:(lia) ltac:(lia)). nia.
    - pose proof (R_mono (S (blk_class j2)) (blk_class j1) ltac:(lia)). unfold R in *. lia.
  Qed.

  Lemma blocks_cover i : 0 <= i < 2 ^ M -> exists j, has_code j /\ in_blk j i.
  Proof.
    intros Hi.
    assert (Hfind : forall m, (m <= Z.to_nat M)%nat -> i < R m -> exists n, (n < m)%nat /\ R n <= i < R (S n)).
    { induction m as [|m IHm]; intros Hm Hlt; [unfold R in Hlt; cbn [region] in Hlt; lia|].
      destruct (Z.lt_ge_cases i (R m)) as [Hl|Hg]; [destruct (IHm ltac:(lia) Hl) as (n & Hn & Hr); exists n|exists m]; split; lia. }
    destruct (Hfind (Z.to_nat M) (le_n _) ltac:(rewrite Htot; lia)) as (n & Hn & Hr). clear Hfind.
    set (b := M - Z.of_nat n). assert (P : 0 < 2 ^ Z.of_nat n) by (apply Z.pow_pos_nonneg; lia).
    assert (E : R (S n) = R n + cnt b bits * 2 ^ Z.of_nat n) by (unfold R; cbn [region]; rewrite Gr by lia; reflexivity).
    set (q := (i - R n) / 2 ^ Z.of_nat n).
    pose proof (Z.mul_div_le (i - R n) _ P) as Q1. pose proof (Z.mul_succ_div_gt (i - R n) _ P) as Q2. fold q in Q1, Q2.
    destruct (cnt_select b bits q ltac:(nia)) as (j & Hj & Hn' & Hc).
    assert (Ec : blk_class j = n) by (unfold blk_class, code_len; rewrite Hn'; unfold b; lia).
    exists j. split; [split; [exact Hj|unfold code_len; rewrite Hn'; unfold b; lia]|].
    unfold in_blk, blk_base, code_len. rewrite Ec, Hn', Hc. lia.
  Qed.

  Lemma assign_codes_run t : forall pre cur dec, bits = pre ++ t ->
    Z.of_nat (length cur) = M + 1 -> Z.of_nat (length dec) = 2 ^ M ->
    (forall b, 1 <= b <= M -> nth_z cur b = R (Z.to_nat (M - b)) + cnt b pre * 2 ^ (M - b)) ->
    exists cur' dec', assign_codes t (Z.of_nat (length pre)) M cur dec = ROk (cur', dec') /\ Z.of_nat (length dec') = 2 ^ M /\
      (forall j i, (length pre <= j)%nat -> has_code j -> in_blk j i -> nth_h dec' i = {| h_sym := Z.of_nat j mod 256; h_bits := code_len j |}) /\
      (forall i, 0 <= i -> (forall j, (length pre <= j)%nat -> has_code j -> ~ in_blk j i) -> nth_h dec' i = nth_h dec i).
  Proof.
    induction t as [|x t IH]; intros pre cur dec Eb Lc Ld Hcur; cbn [assign_codes].
    - exists cur, dec. split; [reflexivity|]. split; [exact Ld|]. split; [|reflexivity].
      intros j i Hj (Hlt & _). rewrite Eb, app_nil_r in Hlt. lia.
    - set (j0 := length pre).
      assert (Ej0 : code_len j0 = x) by (unfold code_len; rewrite Eb; apply nth_middle).
      assert (Hj0 : (j0 < length bits)%nat) by (rewrite Eb, app_length; cbn [length]; unfold j0; lia).
      assert (Epre : bits = (pre ++ [x]) ++ t) by (rewrite <- app_assoc; exact Eb).
      assert (Lpre : length (pre ++ [x]) = S j0) by (rewrite app_length; cbn [length]; unfold j0; lia).
      replace (Z.of_nat j0 + 1) with (Z.of_nat (length (pre ++ [x]))) by lia.
      assert (Hx : 0 <= x <= M) by (rewrite <- Ej0; apply (proj1 (Forall_forall _ _) Hbits), nth_In, Hj0).
      assert (Hcnt : forall b, cnt b (pre ++ [x]) = cnt b pre + if x =? b then 1 else 0) by (intros b; rewrite cnt_app; cbn [cnt]; lia).
      destruct (Z.eqb_spec x 0) as [E0|E0].
      + destruct (IH (pre ++ [x]) cur dec Epre Lc Ld) as (cur' & dec' & E & L & Hin & Hout).
        { intros b Hb. rewrite Hcnt, (Hcur b Hb). destruct (Z.eqb_spec x b); lia. }
        exists cur', dec'. split; [exact E|]. split; [exact L|]. rewrite Lpre in Hin, Hout.
        assert (Hnext : forall j, (j0 <= j)%nat -> has_code j -> (S j0 <= j)%nat).
        { intros j Hj U. destruct (Nat.eq_dec j j0) as [->|]; [destruct U as (_ & U); lia|lia]. }
        split; [intros j i Hj U; apply Hin; [apply Hnext; assumption|exact U]|].
        intros i Hi Hno. apply Hout; [exact Hi|]. intros j Hj. apply Hno. lia.
      + assert (U0 : has_code j0) by (split; [exact Hj0|lia]).
        destruct (has_code_len j0 U0) as (_ & Hc & Ec). destruct (base_bounds j0 U0) as (Bl & Bu).
        assert (Ecls : Z.of_nat (blk_class j0) = M - x) by lia.
        assert (Ebase : nth_z cur x = blk_base j0).
        { rewrite (Hcur x ltac:(lia)). unfold blk_base. rewrite Ej0, Ecls. unfold blk_class. rewrite Ej0, Eb. unfold j0.
          rewrite (proj2 (split_at_length pre (x :: t))). reflexivity. }
        rewrite <- Ecls, Ebase. set (p := 2 ^ Z.of_nat (blk_class j0)) in *. assert (P : 0 < p) by (apply Z.pow_pos_nonneg; lia).
        pose proof (R_mono (S (blk_class j0)) (Z.to_nat M) ltac:(lia)) as Htop. rewrite Htot in Htop.
        pose proof (R_nonneg (blk_class j0)) as Hbot.
        destruct (Z.leb_spec (Z.of_nat (length cur)) x); [lia|]. destruct (Z.ltb_spec (2 ^ M) (blk_base j0 + p)); [lia|].
        set (dec1 := fill_range (Z.to_nat p) (blk_base j0) {| h_sym := Z.of_nat j0 mod 256; h_bits := x |} dec).
        assert (Hfill : forall i, 0 <= i -> nth_h dec1 i = if (blk_base j0 <=? i) && (i <? blk_base j0 + p) then {| h_sym := Z.of_nat j0 mod 256; h_bits := x |} else nth_h dec i).
        { intros i Hi. unfold dec1. rewrite fill_range_spec by (rewrite ?Z2Nat.id; lia). rewrite Z2Nat.id by lia. reflexivity. }
        destruct (IH (pre ++ [x]) (upd cur (Z.to_nat x) (blk_base j0 + p)) dec1 Epre) as (cur' & dec' & E & L & Hin & Hout).
        { rewrite upd_length. exact Lc. }
        { unfold dec1. rewrite fill_range_length. exact Ld. }
        { intros b Hb. rewrite nth_z_upd, Hcnt by lia. destruct (Z.eqb_spec b x) as [->|Hne].
          - rewrite Z.eqb_refl, <- Ebase, (Hcur x Hb). unfold p. rewrite Ecls. lia.
          - destruct (Z.eqb_spec x b); [lia|]. rewrite (Hcur b Hb). lia. }
        exists cur', dec'. split; [exact E|]. split; [exact L|]. rewrite Lpre in Hin, Hout. split.
        * intros j i Hj U Hi. destruct (Nat.eq_dec j j0) as [->|Hne]; [|apply Hin; [lia|exact U|exact Hi]].
          rewrite Hout; [|unfold in_blk in Hi; lia|intros j' Hj' U'; apply (blocks_apart j0 j' i U0 U' Hj' Hi)].
          unfold in_blk in Hi. fold p in Hi. rewrite Hfill by lia. assert ((blk_base j0 <=? i) && (i <? blk_base j0 + p) = true) as -> by lia. rewrite Ej0. reflexivity.
        * intros i Hi Hno. rewrite Hout; [|exact Hi|intros j Hj; apply Hno; lia]. rewrite Hfill by exact Hi.
          pose proof (Hno j0 (le_n _) U0) as N0. unfold in_blk in N0. fold p in N0. assert ((blk_base j0 <=? i) && (i <? blk_base j0 + p) = false) as -> by lia. reflexivity.
  Qed.

  Theorem table_blocks idxs0 dec0 : Z.of_nat (length idxs0) = M + 1 -> Z.of_nat (length dec0) = 2 ^ M ->
    (forall k, (k <= Z.to_nat M)%nat -> nth_z idxs0 (M - Z.of_nat k) = R k) ->
    exists idxs dec (placed : list blk),
      assign_codes bits 0 M idxs0 dec0 = ROk (idxs, dec) /\ Z.of_nat (length dec) = 2 ^ M /\
      NoDup (map blk_sym placed) /\
      (forall s b n, In (s, b, n) placed <-> exists j, has_code j /\ s = Z.of_nat j /\ b = blk_base j /\ n = blk_class j) /\
      (forall j i, has_code j -> in_blk j i -> nth_h dec i = {| h_sym := Z.of_nat j mod 256; h_bits := code_len j |}) /\
      (forall j, has_code j -> (blk_class j < Z.to_nat M)%nat /\ M - Z.of_nat (blk_class j) = code_len j /\
                           0 <= blk_base j /\ blk_base j + 2 ^ Z.of_nat (blk_class j) <= 2 ^ M /\ blk_base j mod 2 ^ Z.of_nat (blk_class j) = 0) /\
      (forall i, 0 <= i < 2 ^ M -> exists j, has_code j /\ in_blk j i).
  Proof.
    intros Li Ld Gi.
    destruct (assign_codes_run bits [] idxs0 dec0 eq_refl Li Ld) as (idxs & dec & Ea & Ld' & Hin & _).
    { intros b Hb. cbn [cnt]. replace b with (M - Z.of_nat (Z.to_nat (M - b))) at 1 by lia. rewrite Gi by lia. lia. }
    exists idxs, dec, (map (fun j => (Z.of_nat j, blk_base j, blk_class j)) (filter (fun j => 0 <? code_len j) (seq 0 (length bits)))).
    split; [exact Ea|]. split; [exact Ld'|]. split; [|split; [|split; [|split; [|exact blocks_cover]]]].
    - rewrite map_map. cbn [blk_sym fst]. apply Injective_map_NoDup; [intros a b; apply Nat2Z.inj|]. apply NoDup_filter, seq_NoDup.
    - intros s b n. rewrite in_map_iff. split.
      + intros (j & E & Hj). apply filter_In in Hj as (Hj & Hp). apply in_seq in Hj. injection E as <- <- <-.
        exists j. split; [split; [lia|apply Z.ltb_lt; exact Hp]|auto].
      + intros (j & (Hj & Hp) & -> & -> & ->). exists j. split; [reflexivity|]. apply filter_In. split; [apply in_seq; lia|apply Z.ltb_lt; exact Hp].
    - intros j i U. apply Hin; [apply Nat.le_0_l|exact U].
    - intros j U. destruct (has_code_len j U) as (_ & Hc & Ec). destruct (base_bounds j U) as (Bl & Bu).
      pose proof (R_nonneg (blk_class j)) as Hbot. pose proof (R_mono (S (blk_class j)) (Z.to_nat M) ltac:(lia)) as Htop.
      rewrite Htot in Htop.
      split; [exact Hc|]. split; [exact Ec|]. split; [lia|]. split; [lia|exact (base_aligned j U)].
  Qed.
End Blocks.

(** [s mod 256]: the source stores the symbol of an entry as a byte *)
Theorem accepted_table_blocks ws : Forall (fun w => 0 <= w) ws -> accepts ws = true ->
  let M := highest_bit_set (kraft ws) in let lw := highest_bit_set (2 ^ M - kraft ws) in
  let W := ws ++ [lw] in let bits := map (fun w => if 0 <? w then M + 1 - w else 0) W in
  1 <= M <= MAX_MAX_NUM_BITS /\ 1 <= lw /\ Forall (fun w => 0 <= w <= M) W /\ kraft W = 2 ^ M /\
  exists dec ranks idxs (placed : list blk),
    build_table_from_weights ws = ROk (dec, M, bits, ranks, idxs) /\ Z.of_nat (length dec) = 2 ^ M /\
    (forall b, 0 <= b -> nth_z ranks b = cnt b bits) /\
    NoDup (map blk_sym placed) /\
    (forall s base n, In (s, base, n) placed ->
       (n < Z.to_nat M)%nat /\ 0 <= base /\ base + 2 ^ Z.of_nat n <= 2 ^ M /\ base mod 2 ^ Z.of_nat n = 0 /\
       (forall i, base <= i < base + 2 ^ Z.of_nat n -> nth_h dec i = {| h_sym := s mod 256; h_bits := M - Z.of_nat n |}) /\
       exists j, (j < length bits)%nat /\ s = Z.of_nat j /\ 0 < nth j bits 0 /\ n = Z.to_nat (M - nth j bits 0) /\
         base = region M ranks n + cnt (nth j bits 0) (firstn j bits) * 2 ^ Z.of_nat n) /\
    (forall i, 0 <= i < 2 ^ M -> exists s base n, In (s, base, n) placed /\ base <= i < base + 2 ^ Z.of_nat n) /\
    (forall j, (j < length bits)%nat -> 0 < nth j bits 0 -> exists base, In (Z.of_nat j, base, Z.to_nat (M - nth j bits 0)) placed /\
       base = region M ranks (Z.to_nat (M - nth j bits 0)) + cnt (nth j bits 0) (firstn j bits) * 2 ^ (M - nth j bits 0)).
Proof.
  intros Hnn Ha M lw W bits. unfold accepts in Ha. cbv zeta in Ha. fold M in Ha.
  apply andb_prop in Ha as [Ha H11]. apply andb_prop in Ha as [Ha Hp]. apply andb_prop in Ha as [Hle Hk0].
  pose proof (kraft_nonneg ws) as K0. assert (Hk : 0 < kraft ws) by lia.
  pose proof (Z.log2_spec _ Hk) as (Llo & Lup). pose proof (Z.log2_nonneg (kraft ws)) as L0.
  assert (HM : 1 <= M) by (unfold M, highest_bit_set; lia).
  assert (Lup' : kraft ws < 2 ^ M) by (unfold M, highest_bit_set; exact Lup).
  set (lo := 2 ^ M - kraft ws) in *. pose proof Hp as Hp'. unfold is_pow2 in Hp'. apply andb_prop in Hp' as [Hlo Elo].
  pose proof (Z.log2_nonneg lo) as Llo0.
  assert (Hlw : 1 <= lw) by (unfold lw, highest_bit_set; lia).
  assert (Elw : 2 ^ (lw - 1) = lo) by (unfold lw, highest_bit_set; rewrite Z.add_simpl_r; lia).
  assert (KW : kraft W = 2 ^ M) by (unfold W; rewrite kraft_snoc by lia; lia).
  (* a positive weight w has 2^(w-1) < 2^M: the other part of the sum is positive too *)
  assert (HW : Forall (fun w => 0 <= w <= M) W).
  { apply Forall_forall. intros w Hw. apply in_app_or in Hw as [Hw|[<-|[]]].
    - rewrite Forall_forall in Hnn. split; [apply Hnn; exact Hw|]. destruct (Z.le_gt_cases w 0); [lia|].
      pose proof (kraft_ge w ws Hw ltac:(lia)). assert (w - 1 < M); [apply (Z.pow_lt_mono_r_iff 2); lia|lia].
    - split; [lia|]. assert (lw - 1 < M); [apply (Z.pow_lt_mono_r_iff 2); lia|lia]. }
  split; [lia|]. split; [exact Hlw|]. split; [exact HW|]. split; [exact KW|].
  destruct (count_ranks_spec bits (zeros (Z.to_nat (M + 1))) M ltac:(rewrite zeros_len; lia) (code_lengths_in_range M W HW)) as (ranks & Ecr & Gr).
  assert (Gr' : forall b, 0 <= b -> nth_z ranks b = cnt b bits) by (intros b Hb0; rewrite Gr, nth_z_zeros by exact Hb0; lia).
  destruct (rank_idx_loop_inv (Z.to_nat M) M ranks (zeros (Z.to_nat (M + 1))) 0 ltac:(rewrite zeros_len; lia) ltac:(lia) ltac:(lia)) as (Li & Gi).
  { intros k Hk'. assert (k = 0%nat) by lia. subst k. rewrite nth_z_zeros. reflexivity. }
  cbn [Nat.add Z.of_nat] in Gi, Li. rewrite Z.sub_0_r in Gi, Li.
  assert (Hreg : region M ranks (Z.to_nat M) = 2 ^ M).
  { rewrite (region_below M ranks W HM HW Gr') by lia. rewrite <- (kraft_below (Z.to_nat M) W); [exact KW|rewrite Z2Nat.id by lia; exact HW]. }
  assert (Eq : build_table_from_weights ws =
            let* (idxs', dec) := assign_codes bits 0 M (rank_idx_loop (Z.to_nat M) M M ranks (zeros (Z.to_nat (M + 1)))) (hentries0 (Z.to_nat (2 ^ M))) in
            ROk (dec, M, bits, ranks, idxs')).
  { unfold build_table_from_weights. rewrite weight_sum_eq, Hle, Z.add_0_l. cbn [rbind]. cbv zeta. fold M. fold lo. fold lw.
    assert (kraft ws =? 0 = false) as -> by lia. rewrite Hp, Z.ltb_antisym, H11. cbn [negb].
    assert (Eb : map (fun w => if 0 <? w then M + 1 - w else 0) ws ++ [M + 1 - lw] = bits).
    { unfold bits, W. rewrite map_app. cbn [map]. assert (0 <? lw = true) as -> by lia. reflexivity. }
    rewrite Eb, Ecr. cbn [rbind].
    (* the assertion of the source: the last region start is the table size *)
    pose proof (Gi (Z.to_nat M) (le_n _)) as G0. rewrite Z2Nat.id, Z.sub_diag in G0 by lia.
    rewrite G0, Hreg, Z.eqb_refl. reflexivity. }
  set (idxs0 := rank_idx_loop (Z.to_nat M) M M ranks (zeros (Z.to_nat (M + 1)))) in *.
  assert (HM1 : 1 <= M) by lia. pose proof (code_lengths_in_range M W HW) as Hbits.
  assert (Ldec : Z.of_nat (length (hentries0 (Z.to_nat (2 ^ M)))) = 2 ^ M).
  { rewrite hentries0_len. pose proof (Z.pow_pos_nonneg 2 M ltac:(lia) ltac:(lia)). lia. }
  destruct (table_blocks M bits ranks HM1 Hbits Gr' Hreg idxs0 _ Li Ldec Gi) as (idxs & dec & placed & Ea & Ld & ND & Hpl & Hin & Hb & Hcov).
  rewrite Ea in Eq. cbn [rbind] in Eq. unfold has_code, in_blk, blk_base, blk_class, code_len in Hpl, Hin, Hb, Hcov.
  exists dec, ranks, idxs, placed. split; [exact Eq|]. split; [exact Ld|]. split; [exact Gr'|]. split; [exact ND|]. split; [|split].
  - intros s b n Hpin. apply Hpl in Hpin as (j & Uj & -> & -> & ->). destruct (Hb j Uj) as (Hc & Ec & B0 & B1 & B2).
    split; [exact Hc|]. split; [exact B0|]. split; [exact B1|]. split; [exact B2|].
    split; [intros i Hi; rewrite (Hin j i Uj Hi), Ec; reflexivity|]. exists j. destruct Uj. repeat split; assumption.
  - intros i Hi. destruct (Hcov i Hi) as (j & Uj & Hi'). eexists _, _, _. split; [apply Hpl; exists j; auto|exact Hi'].
  - intros j Hj Hpos. eexists. split; [apply Hpl; exists j; auto|]. destruct (Hb j (conj Hj Hpos)) as (Hc & Ec & _).
    rewrite Z2Nat.id by lia. reflexivity.
Qed.

Lemma build_table_inv ws dec M bits ranks idxs : Forall (fun w => 0 <= w) ws ->
  build_table_from_weights ws = ROk (dec, M, bits, ranks, idxs) ->
  let W := ws ++ [highest_bit_set (2 ^ M - kraft ws)] in
  accepts ws = true /\ M = highest_bit_set (kraft ws) /\ bits = map (fun w => if 0 <? w then M + 1 - w else 0) W /\
  1 <= M <= MAX_MAX_NUM_BITS /\ Forall (fun w => 0 <= w <= M) W /\ Forall (fun b => 0 <= b <= M) bits /\
  kraft W = 2 ^ M /\ forall b, 0 <= b -> nth_z ranks b = cnt b bits.
Proof.
  intros Hnn Hb. destruct (accepts ws) eqn:Ha; [|destruct (build_table_refuses ws Ha) as (e & E); congruence].
  destruct (accepted_table_blocks ws Hnn Ha) as (HM & _ & HW & KW & dec' & ranks' & idxs' & _ & E & _ & Gr & _). rewrite E in Hb. injection Hb as <- <- <- <- <-.
  repeat split; try assumption; try apply HM. exact (code_lengths_in_range _ _ HW).
Qed.

Theorem built_table_blocks ws dec M bits ranks idxs : Forall (fun w => 0 <= w) ws -> (length ws <= 255)%nat ->
  build_table_from_weights ws = ROk (dec, M, bits, ranks, idxs) ->
  exists placed : list blk,
    NoDup (map blk_sym placed) /\
    (forall s base n, In (s, base, n) placed ->
       (n < Z.to_nat M)%nat /\ 0 <= s < Z.of_nat (length bits) /\ 0 <= base /\ base + 2 ^ Z.of_nat n <= 2 ^ M /\ base mod 2 ^ Z.of_nat n = 0 /\
       forall i, base <= i < base + 2 ^ Z.of_nat n -> nth_h dec i = {| h_sym := s; h_bits := M - Z.of_nat n |}) /\
    (forall i, 0 <= i < 2 ^ M -> exists s base n, In (s, base, n) placed /\ base <= i < base + 2 ^ Z.of_nat n) /\
    (* the canonical place: after the blocks of all longer codes and of the smaller symbols with the same length *)
    (forall j, (j < length bits)%nat -> 0 < nth j bits 0 -> exists base, In (Z.of_nat j, base, Z.to_nat (M - nth j bits 0)) placed /\
       base = region M ranks (Z.to_nat (M - nth j bits 0)) + cnt (nth j bits 0) (firstn j bits) * 2 ^ (M - nth j bits 0)).
Proof.
  intros Hnn Hlen Hb. destruct (build_table_inv _ _ _ _ _ _ Hnn Hb) as (Ha & EM & Ebits & _).
  destruct (accepted_table_blocks ws Hnn Ha) as (_ & _ & _ & _ & dec' & ranks' & idxs' & placed & E & _ & _ & ND & Hblk & Hcover & Hsyms).
  rewrite <- EM in *. rewrite <- Ebits in *. rewrite Hb in E. injection E as <- <- <-.
  assert (Lb : length bits = S (length ws)) by (rewrite Ebits, map_length, app_length; cbn [length]; lia).
  exists placed. split; [exact ND|]. split; [|split; [exact Hcover|exact Hsyms]].
  intros s base n Hin. destruct (Hblk s base n Hin) as (B1 & B3 & B4 & B5 & B6 & j & Hj & -> & _).
  split; [exact B1|]. split; [lia|]. split; [exact B3|]. split; [exact B4|]. split; [exact B5|].
  intros i Hi. rewrite (B6 i Hi), Z.mod_small by lia. reflexivity.
Qed.
