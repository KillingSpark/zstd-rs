(** C20: the dictionary builder never writes more than the requested size, whatever the training data, the pool of
    candidate segments and the size estimate; its sizing arithmetic never divides by zero or fails an assertion. *)
Require Import Zrs.lib.RsPrelude Zrs.model.DictBuilder.
Open Scope Z_scope.

Lemma total_nonneg pool : 0 <= total pool.
Proof. induction pool as [|s t IH]; cbn [total]; lia. Qed.

Lemma prune_bound pool : forall tot d, tot = total pool -> 0 <= d -> total (prune pool tot d) <= d.
Proof.
  induction pool as [|s t IH]; intros tot d Ht Hd; cbn [prune].
  - destruct (d <? tot); cbn [total]; lia.
  - destruct (Z.ltb_spec d tot) as [Hover|Hfit].
    + apply IH; [cbn [total] in Ht; lia|exact Hd].
    + rewrite <- Ht. exact Hfit.
Qed.

Lemma prune_suffix pool : forall tot d, exists dropped, pool = dropped ++ prune pool tot d.
Proof.
  induction pool as [|s t IH]; intros tot d; cbn [prune].
  - destruct (d <? tot); exists []; reflexivity.
  - destruct (d <? tot).
    + destruct (IH (tot - Z.of_nat (length s)) d) as (dr & E). exists (s :: dr). cbn [app]. f_equal. exact E.
    + exists []. reflexivity.
Qed.

Lemma concat_length pool : Z.of_nat (length (concat pool)) = total pool.
Proof. induction pool as [|s t IH]; cbn [concat total length]; [reflexivity|]. rewrite app_length. lia. Qed.

Ltac Zify.zify_post_hook ::= idtac.   (* divisions by variables: treat quotients as atoms *)

Lemma div_ge_1 a b : 0 < b <= a -> 1 <= a / b.
Proof. intros H. apply Z.div_le_lower_bound; lia. Qed.

Lemma checked_div_ok a b : b <> 0 -> checked_div a b = ROk (a / b).
Proof. intros H. unfold checked_div. destruct (Z.eqb_spec b 0); [contradiction|reflexivity]. Qed.

Lemma compute_epoch_info_ok seg dict nk : seg <> 0 -> 1 <= nk ->
  exists ne es, compute_epoch_info seg dict nk = ROk (ne, es) /\ 1 <= es.
Proof.
  intros Hseg Hnk. unfold compute_epoch_info. rewrite checked_div_ok by exact Hseg. cbn [rbind].
  set (ne := Z.max 1 (dict / seg)). rewrite checked_div_ok by lia. cbn [rbind].
  destruct (Z.leb_spec 10000 (nk / ne)) as [Hbig|_].
  - rewrite (proj2 (Z.leb_le _ nk)) by (rewrite Z.mul_comm; apply Z.mul_div_le; lia).
    eexists _, _. split; [reflexivity|lia].
  - rewrite checked_div_ok by lia. eexists _, _. split; [reflexivity|lia].
Qed.

(** every divisor is at least 1: the segment size is at least 16, so there are at most [source_size / 16] segments
    and [2 * num_segments <= source_size] *)
Theorem sizing_never_panics source_size dict_size : 16 <= source_size -> 0 <= dict_size ->
  exists seg sample epoch, sizing source_size dict_size = ROk (seg, sample, epoch) /\
    16 <= seg <= 2048 /\ 16 <= sample /\ 1 <= epoch.
Proof.
  intros Hs Hd. unfold sizing, K. cbv zeta.
  set (seg := Z.min 2048 source_size). assert (Hseg : 16 <= seg <= 2048 /\ seg <= source_size) by lia. clearbody seg.
  rewrite checked_div_ok by lia. cbn [rbind].
  pose proof (div_ge_1 source_size seg ltac:(lia)) as Hns.
  pose proof (Z.mul_div_le source_size seg ltac:(lia)) as Hmul.
  set (ns := source_size / seg) in *. clearbody ns.
  assert (H2ns : 2 * ns <= source_size).
  { assert (2 * ns <= seg * ns) by (apply Z.mul_le_mono_nonneg_r; lia). lia. }
  rewrite checked_div_ok by lia. cbn [rbind].
  pose proof (div_ge_1 source_size (2 * ns) ltac:(lia)) as Hper.
  rewrite checked_div_ok by lia. cbn [rbind].
  rewrite (proj2 (Z.ltb_ge _ 16)) by apply Z.le_max_l.
  destruct (compute_epoch_info_ok seg dict_size (source_size / 16)) as (ne & es & -> & Hes);
    [lia|apply div_ge_1; lia|].
  cbn [rbind]. rewrite checked_div_ok by lia. cbn [rbind].
  eexists _, _, _. split; [reflexivity|]. repeat split; lia.
Qed.

(** whatever the source, the estimate, the pool: at most [dict_size] bytes are written, and they are whole segments
    from the high-scoring end of the pool (or a prefix of the source on the small-source path) *)
Theorem build_dict_size_bound source source_size dict_size pool : 0 <= dict_size ->
  exists out, build_dict source source_size dict_size pool = ROk out /\ Z.of_nat (length out) <= dict_size.
Proof.
  intros Hd. unfold build_dict. destruct (Z.ltb_spec source_size 16) as [Hsmall|Hbig].
  - eexists. split; [reflexivity|]. rewrite firstn_length. lia.
  - destruct (sizing_never_panics source_size dict_size Hbig Hd) as (a & b & c & E & _). rewrite E. cbn [rbind].
    eexists. split; [reflexivity|]. rewrite concat_length. apply prune_bound; [reflexivity|exact Hd].
Qed.

Theorem build_dict_keeps_best_segments source source_size dict_size pool out : 16 <= source_size -> 0 <= dict_size ->
  build_dict source source_size dict_size pool = ROk out -> exists dropped kept, pool = dropped ++ kept /\ out = concat kept.
Proof.
  intros Hs Hd. unfold build_dict. destruct (Z.ltb_spec source_size 16) as [|_]; [lia|].
  destruct (sizing_never_panics source_size dict_size Hs Hd) as (a & b & c & E & _). rewrite E. cbn [rbind].
  intros [= <-]. destruct (prune_suffix pool (total pool) dict_size) as (dr & Ep). exists dr, (prune pool (total pool) dict_size).
  split; [exact Ep|reflexivity].
Qed.
